(* The generated Unmarshal method, characterised exactly (C02, C03, C04, C05, C06 at the level of one method): for a struct
   without an additional-properties field whose validators are presence and value checks (no default assignment, no composite),
   a JSON object is accepted iff  every required key is present,  every present key decodes into its field's type,  and every
   check passes on the decoded fields; the accepted value is the decoded struct.  Both directions, every validator list and
   document.  Then the generator: the validators it attaches to a field are checks of that field's value ([own]), so an object
   schema without defaults and additionalProperties gets such a method. *)
From GJS Require Import Base Schema GoType Gen Exec ExecP GenP.

Section MethodP.
Variable decf : gty -> json -> outcome gval.
Variable zf : gty -> gval.
Variable dvf : gty -> json -> option gval.

Definition check_only (v : validator) : bool := match v with VDefault _ _ _ _ | VAnyOf _ => false | _ => true end.

Lemma check_only_has_error v : check_only v = true -> v_has_error v = true.
Proof. destruct v; try discriminate; reflexivity. Qed.

Lemma run_after_same raw vs st st' : forallb check_only vs = true -> run_after dvf vs raw st = Ok st' -> st' = st.
Proof.
  revert st. induction vs as [|v r IH]; intros st Hc H; [inversion H; reflexivity|].
  cbn [forallb] in Hc. apply andb_true_iff in Hc. destruct Hc as [Hv Hr]. rewrite run_after_cons in H.
  destruct (after_step dvf raw st v) as [s| | |] eqn:E; try discriminate H.
  rewrite (after_step_same dvf raw st v s (check_only_has_error v Hv) E) in H. exact (IH st Hr H).
Qed.

Lemma run_after_exact raw vs st : forallb check_only vs = true ->
  is_ok (run_after dvf vs raw st) = forallb (fun v => is_ok (after_step dvf raw st v)) vs.
Proof.
  induction vs as [|v r IH]; intros Hc; [reflexivity|].
  cbn [forallb] in *. apply andb_true_iff in Hc. destruct Hc as [Hv Hr]. rewrite run_after_cons.
  destruct (after_step dvf raw st v) as [s| | |] eqn:E; try reflexivity.
  rewrite (after_step_same dvf raw st v s (check_only_has_error v Hv) E). exact (IH Hr).
Qed.

Definition field_decodes (kv : list (str * json)) (fl : field) : bool :=
  f_addl fl || match lookup (f_json fl) kv with Some x => is_ok (decf (f_ty fl) x) | None => true end.

Lemma plain_fields_is_ok fs kv : is_ok (plain_fields decf zf fs (JObj kv)) = true <-> forallb (field_decodes kv) fs = true.
Proof.
  rewrite plain_fields_eq, is_ok_map, omap_is_ok. rewrite (forallb_ext_in _ (field_decodes kv) fs); [tauto|].
  intros fl _. rewrite is_ok_map. unfold field_value, field_decodes. destruct (f_addl fl); [reflexivity|].
  destruct (lookup (f_json fl) kv); reflexivity.
Qed.

(* the `raw` map of [run_method] on the object document kv: declared iff some validator needs it *)
Definition raw_of (vs : list validator) (kv : list (str * json)) : raw_t :=
  if existsb v_before vs || existsb v_raw_after vs then Some (Some kv) else None.

Lemma addl_block_none fs raw st : find f_addl fs = None -> addl_block fs raw st = Ok st.
Proof. intros H. unfold addl_block. rewrite H. reflexivity. Qed.

Lemma run_method_nil fs under j :
  find f_addl fs = None -> is_ok (run_method decf zf dvf (Some fs) under [] j) = is_ok (plain_fields decf zf fs j).
Proof.
  intros Ha. unfold run_method. cbn [existsb orb obind run_before run_after fold_left].
  destruct (plain_fields decf zf fs j); cbn [obind is_ok]; try reflexivity. rewrite (addl_block_none _ _ _ Ha). reflexivity.
Qed.

Lemma run_method_decoded fs under vs kv st : find f_addl fs = None -> plain_fields decf zf fs (JObj kv) = Ok st ->
  run_method decf zf dvf (Some fs) under vs (JObj kv)
  = obind (run_before decf vs (raw_of vs kv) (JObj kv)) (fun _ => run_after dvf vs (raw_of vs kv) st).
Proof.
  intros Ha Hp. unfold run_method, raw_of. rewrite Hp.
  assert (E : forall raw, obind (run_after dvf vs raw st) (fun st => addl_block fs raw st) = run_after dvf vs raw st).
  { intros raw. destruct (run_after dvf vs raw st); cbn [obind]; try reflexivity. apply addl_block_none, Ha. }
  destruct (existsb v_before vs || existsb v_raw_after vs); cbn [obind]; apply obind_ext; intros _; apply E.
Qed.

Theorem method_exact fs under vs kv : forallb check_only vs = true -> find f_addl fs = None ->
  is_ok (run_method decf zf dvf (Some fs) under vs (JObj kv)) =
    forallb (fun v => is_ok (before_step decf (raw_of vs kv) (JObj kv) v)) vs &&
    match plain_fields decf zf fs (JObj kv) with
    | Ok st => forallb (fun v => is_ok (after_step dvf (raw_of vs kv) st v)) vs
    | _ => false
    end.
Proof.
  intros Hc Ha. destruct (plain_fields decf zf fs (JObj kv)) as [st| | |] eqn:Ep.
  2-4: rewrite andb_false_r; apply run_method_decode_fails; rewrite Ep; reflexivity.
  rewrite (run_method_decoded fs under vs kv st Ha Ep), is_ok_then, run_before_exact, run_after_exact by exact Hc. reflexivity.
Qed.

Theorem method_exact_value fs under vs kv st : forallb check_only vs = true -> find f_addl fs = None ->
  run_method decf zf dvf (Some fs) under vs (JObj kv) = Ok st -> plain_fields decf zf fs (JObj kv) = Ok st.
Proof.
  intros Hc Ha H. destruct (plain_fields decf zf fs (JObj kv)) as [st0| | |] eqn:Ep.
  2-4: assert (Hi : is_ok (run_method decf zf dvf (Some fs) under vs (JObj kv)) = false)
    by (apply run_method_decode_fails; rewrite Ep; reflexivity); rewrite H in Hi; discriminate Hi.
  rewrite (run_method_decoded fs under vs kv st0 Ha Ep) in H.
  destruct (run_before decf vs (raw_of vs kv) (JObj kv)); try discriminate H.
  rewrite (run_after_same _ _ _ _ Hc H). reflexivity.
Qed.
End MethodP.

Theorem struct_exact fmt_ok env f c n fs vs kv : forallb check_only vs = true -> find f_addl fs = None ->
  is_ok (Exec.dec fmt_ok env (S f) (TStruct (c :: n) fs (Some vs)) (JObj kv)) =
    forallb (fun v => is_ok (before_step (Exec.dec fmt_ok env f) (raw_of vs kv) (JObj kv) v)) vs &&
    match plain_fields (Exec.dec fmt_ok env f) zero fs (JObj kv) with
    | Ok st => forallb (fun v => is_ok (after_step (default_val env dv_fuel) (raw_of vs kv) st v)) vs
    | _ => false
    end.
Proof. intros Hc Ha. cbn [Exec.dec]. apply method_exact; assumption. Qed.

Theorem struct_exact_value fmt_ok env f c n fs vs kv st : forallb check_only vs = true -> find f_addl fs = None ->
  Exec.dec fmt_ok env (S f) (TStruct (c :: n) fs (Some vs)) (JObj kv) = Ok st ->
  plain_fields (Exec.dec fmt_ok env f) zero fs (JObj kv) = Ok st.
Proof. intros Hc Ha. cbn [Exec.dec]. apply method_exact_value; assumption. Qed.

Definition own (fn : str) (w : validator) : Prop := check_only w = true /\ v_fname w = fn /\ (forall k, w <> VRequired k).

Lemma array_validators_own fn jn mn mx : forall t d, Forall (own fn) (array_validators fn jn mn mx d t).
Proof.
  induction t as [| | | | | | |?|inl e IH|?|? ? ?|? ? ?|? ? ? ?|?]; intros d; try apply Forall_nil.
  (* TSlice: only a slice built inline gets array validators *)
  destruct inl; [|apply Forall_nil].
  destruct (array_validators_cases fn jn mn mx d e) as [[_ ->] | ->]; [repeat constructor; discriminate|].
  apply Forall_app. split; [destruct (negb (mn =? 0) || negb (mx =? 0)); repeat constructor; discriminate|apply IH].
Qed.

Lemma field_validators_own fn jn c b : forall t nl, Forall (own fn) (field_validators fn jn c b t nl).
Proof.
  induction t as [| | | | | | |u IH|inl e _|?|? ? ?|? ? ?|? ? ? ?|?]; intros nl; cbn [field_validators]; try apply Forall_nil.
  - (* TString *) destruct (has_string_kw c); repeat constructor; discriminate.
  - (* TFloat *) destruct (has_bound_kw (c_mult c) b); repeat constructor; discriminate.
  - (* TInt *) destruct (has_bound_kw (c_mult c) b); repeat constructor; discriminate.
  - (* TNullT *) repeat constructor; discriminate.
  - (* TPtr *) exact (IH true).
  - (* TSlice *) destruct inl; [apply array_validators_own|apply Forall_nil].
Qed.

Lemma own_check_only fn ws : Forall (own fn) ws -> forallb check_only ws = true.
Proof. induction 1 as [|w r [Hc _] _ IH]; [reflexivity|]. cbn [forallb]. rewrite Hc. exact IH. Qed.

Section GenMethod.
Variable idf : str -> str.
Variable cf : cfg.
Variable defs : list (str * schema).

Lemma make_field_checks c self fname k p ty bp :
  c_default (s_con p) = None -> forallb check_only (snd (make_field defs c self fname k p ty bp)) = true.
Proof.
  intros Hd. rewrite (make_field_no_default defs _ _ _ _ _ _ _ Hd). exact (own_check_only _ _ (field_validators_own _ _ _ _ _ _)).
Qed.

Theorem object_method_checks_only f self sub s scope t b :
  plain_object s -> s_addl s = None -> (forall k p, In (k, p) (s_props s) -> c_default (s_con p) = None) ->
  Gen.gen idf cf defs (S f) MType self sub s scope = Done (t, b) ->
  exists fs vs, t = TStruct [] fs (Some vs) /\ forallb check_only vs = true /\ find f_addl fs = None.
Proof.
  intros Hp Ha Hd Hg.
  destruct (gen_object_infos idf cf defs (fun i => forallb check_only (snd i) = true) f self sub s scope t b Hp Ha Hg) as (infos & Hi & _ & Hfa & ->).
  { intros fname k p ty bp Hin _. apply make_field_checks, (Hd k). exact (prop_names_In_inv idf _ _ Hin). }
  eexists. eexists. split; [reflexivity|]. split; [|exact Hfa].
  destruct (required_checks infos) as [ks ->]. rewrite forallb_app, forallb_map, forallb_true, forallb_flat_map.
  apply forallb_forall, Forall_forall, Hi.
Qed.
End GenMethod.

Definition has_key (kv : list (str * json)) (k : str) : bool := match lookup k kv with Some _ => true | None => false end.

(* C04, both directions: the before-checks of a checks-only method pass iff every required key is present *)
Definition required_of (vs : list validator) : list str :=
  flat_map (fun v => match v with VRequired k => [k] | _ => [] end) vs.

Lemma required_of_app a b : required_of (a ++ b) = required_of a ++ required_of b.
Proof. unfold required_of. apply flat_map_app. Qed.

Lemma before_checks_exact decf vs kv : forallb check_only vs = true ->
  forallb (fun v => is_ok (before_step decf (raw_of vs kv) (JObj kv) v)) vs =
  forallb (has_key kv) (required_of vs).
Proof.
  intros Hc. unfold required_of. rewrite forallb_flat_map. apply forallb_ext_in. intros v Hin.
  rewrite forallb_forall in Hc. specialize (Hc v Hin). destruct v; try discriminate Hc; try reflexivity.
  unfold raw_of. rewrite (existsb_before_required vs jname Hin). cbn. unfold has_key. destruct (lookup jname kv); reflexivity.
Qed.
