(* C11 end to end.  allOf: the struct generated for an allOf node accepts a JSON object iff every (resolved) member is valid -
   generator (the node is generated as the merge of its members), merge (the merge is the conjunction for compatible members) and
   decoder (the declared struct accepts iff valid, at any nesting depth) composed.  anyOf: the carrier's method accepts a JSON object
   iff some branch is valid and the object decodes into the merged fields. *)
From GJS Require Import Base Schema Merge GoType Gen Exec Valid ExecP GenP LevelP NestedP MergeP AnyOfP.

Section CompositeExact.
Variable idf : str -> str.
Variable cf : cfg.
Variable defs : list (str * schema).
Variable fmt_ok : fmtk -> str -> bool.
Variable env : list (str * gty).
Variable sdefs : list (str * schema).
Hypothesis Hms : g_minsized cf = false.
Hypothesis Hom : g_only_models cf = false.
Notation gen := (Gen.gen idf cf defs).
Notation dec := (Exec.dec fmt_ok env).
Notation valid := (Valid.valid fmt_ok sdefs).

Lemma all_of_schema_inv bs m : all_of_schema defs bs = Done m ->
  exists rs, resolve_branches defs bs = Done rs /\ merge_types rs = Some m.
Proof.
  unfold all_of_schema. destruct (resolve_branches defs bs) as [rs| | |]; cbn [rbind]; try discriminate.
  destruct (existsb _ rs); [discriminate|]. destruct (merge_types rs) as [m'|] eqn:Em; [|discriminate].
  intros H; inversion H; subst. exists rs. split; [reflexivity|exact Em].
Qed.

(* a, b0, c0: the fuels a, b, c of fuelG, fuelD, fuelV (b and c are taken by the schema) *)
Theorem allof_objects_exact n a b0 c0 self sub c props addl af items b bs scope t bb kv rs m :
  c_enum c = None -> c_ref c = None -> scope <> [] ->
  resolve_branches defs (b :: bs) = Done rs -> merge_types rs = Some m ->
  all_of_schema defs (b :: bs) = Done m ->
  forallb prim_or_untyped rs = false -> compat_all empty_schema rs = true ->
  sobj idf cf defs env sdefs n m -> dok idf cf defs env sdefs n m kv ->
  gen (S (S (fuelG n a))) MInline self sub (Sch c props addl af items (b :: bs) []) scope = Done (t, bb) ->
  is_ok (dec (fuelD n b0) t (JObj kv)) = forallb (fun r => valid (fuelV n c0) r (JObj kv)) rs.
Proof.
  intros He Hr Hsc Hres Hmt Hall Hnp Hcompat Hs Hk Hg.
  rewrite (allof_generated idf cf defs _ self sub c props addl af items b bs scope m He Hr Hall) in Hg.
  destruct (sobj_facts idf cf defs env sdefs n m Hs) as (Pp & Pty). pose proof Pp as (Pe & Pr & Pobj & Pprops & Pall & Pany).
  rewrite (gen_inline_object_eq idf cf defs _ self false m scope Pe Pr Pall Pany Pty) in Hg.
  rewrite (nested_object_exact idf cf defs fmt_ok env sdefs Hms Hom n a b0 c0 self false m scope t bb kv Hsc Hs Hk Hg).
  destruct (fuelV_SS n c0) as [x Hx]. rewrite Hx.
  exact (merge_is_conjunction fmt_ok sdefs rs m (S x) (JObj kv) Hnp Hcompat Hmt).
Qed.

(* anyOf: the carrier's method accepts a JSON object iff some branch is VALID (reference semantics) and the object decodes into the carrier's
   merged fields - for branches that are scalar objects of depth n, whose types were generated from them, once every branch decode is decided
   (no crash: C19_total under wf_ty; fuel enough: checked per instance) *)
Theorem anyof_objects_exact n b0 c0 ch nm fs (bs : list schema) (brs : list gty) kv :
  Forall2 (fun b bt => exists a self sub sc bb, sc <> [] /\ sobj idf cf defs env sdefs n b /\ dok idf cf defs env sdefs n b kv /\
                       gen (fuelG n a) MDeclared self sub b sc = Done (bt, bb)) bs brs ->
  (forall bt, In bt brs -> dec (fuelD n b0) bt (JObj kv) <> Crash /\ dec (fuelD n b0) bt (JObj kv) <> NoFuel) ->
  is_ok (dec (S (fuelD n b0)) (TStruct (ch :: nm) fs (Some [VAnyOf brs])) (JObj kv)) =
  existsb (fun b => valid (fuelV n c0) b (JObj kv)) bs &&
  is_ok (obind (plain_fields (dec (fuelD n b0)) zero fs (JObj kv)) (fun st => addl_block fs (Some (Some kv)) st)).
Proof.
  intros Hrel Hdec. rewrite (anyof_method fmt_ok env). cbn zeta. rewrite (anyof_step _ _ _ _ Hdec).
  assert (Hex : existsb (fun bt => is_ok (dec (fuelD n b0) bt (JObj kv))) brs = existsb (fun b => valid (fuelV n c0) b (JObj kv)) bs).
  { symmetry. apply (existsb_Forall2 _ _ _ _ _ Hrel). intros b bt _ (a & self & sub & sc & bb & Hsc & Hs & Hk & Hg). symmetry.
    exact (nested_object_exact idf cf defs fmt_ok env sdefs Hms Hom n a b0 c0 self sub b sc bt bb kv Hsc Hs Hk Hg). }
  rewrite Hex. destruct (existsb _ bs); cbn [obind is_ok andb]; reflexivity.
Qed.
End CompositeExact.

(* an instance: allOf of {a: string minLength 2 (required), s: string maxLength 4} and {b: string (required), s: minLength 2} *)
Definition co_m1 : schema :=
  Sch (mkC [SObject] None None [[97]%N] 0 0 0 0 None None (mkBounds None None None None) None None)
      [([97]%N, ex_leaf 2 0 None); ([115]%N, ex_leaf 0 4 None)] None false None [] [].
Definition co_m2 : schema :=
  Sch (mkC [SObject] None None [[98]%N] 0 0 0 0 None None (mkBounds None None None None) None None)
      [([98]%N, ex_leaf 0 0 None);
       ([115]%N, Sch (mkC [] None None [] 0 0 2 0 None None (mkBounds None None None None) None None) [] None false None [] [])] None false None [] [].
Definition co_node : schema := Sch empty_con [] None false None [co_m1; co_m2] [].
Definition co_merged : schema := Eval vm_compute in match merge_types [co_m1; co_m2] with Some m => m | None => empty_schema end.
Definition co_ok : list (str * json) := [([97]%N, JStr [120; 121]%N); ([98]%N, JStr [122]%N); ([115]%N, JStr [112; 113; 114]%N)].
Definition co_short : list (str * json) := [([97]%N, JStr [120; 121]%N); ([98]%N, JStr [122]%N); ([115]%N, JStr [112]%N)].       (* s violates the second member *)
Definition co_missing : list (str * json) := [([97]%N, JStr [120; 121]%N); ([115]%N, JStr [112; 113]%N)].                      (* b, required by the second member *)

Lemma co_merged_sobj : sobj (fun s => s) (mkCfg false false) [] [] [] 0 co_merged.
Proof. apply sobj_by_shape; [reflexivity|]. intros k p [H|[H|[H|[]]]]; inversion H; subst; left; apply ex_leaf_is_leaf. Qed.

Example allof_exact_inhabited :
  exists t b, Gen.gen (fun s => s) (mkCfg false false) [] (S (S (fuelG 0 1))) MInline None false co_node [84]%N = Done (t, b) /\
    (forall kv, In kv [co_ok; co_short; co_missing] ->
       is_ok (Exec.dec (fun _ _ => true) [] (fuelD 0 0) t (JObj kv)) = forallb (fun r => Valid.valid (fun _ _ => true) [] (fuelV 0 0) r (JObj kv)) [co_m1; co_m2]) /\
    map (fun kv => forallb (fun r => Valid.valid (fun _ _ => true) [] (fuelV 0 0) r (JObj kv)) [co_m1; co_m2]) [co_ok; co_short; co_missing] = [true; false; false].
Proof.
  eexists. eexists. split; [vm_compute; reflexivity|].
  assert (Hgen : Gen.gen (fun s => s) (mkCfg false false) [] (S (S (fuelG 0 1))) MInline None false co_node [84]%N = Done _) by (vm_compute; reflexivity).
  split; [|vm_compute; reflexivity].
  intros kv Hkv.
  eapply (allof_objects_exact (fun s => s) (mkCfg false false) [] (fun _ _ => true) [] [] eq_refl eq_refl 0 1 0 0 None false empty_con [] None false None co_m1 [co_m2] [84]%N _ _ kv [co_m1; co_m2] co_merged);
    try reflexivity; try discriminate; try exact co_merged_sobj; try exact Hgen.
  apply dokb_sound. destruct Hkv as [<-|[<-|[<-|[]]]]; reflexivity.
Qed.

(* an instance of the anyOf statement: anyOf of {a: string, required} and {b: integer, required} (AnyOfP.ex_any) *)
Definition an_b0 : gty := Eval vm_compute in match Gen.gen (fun s => s) (mkCfg false false) [] (fuelG 0 0) MDeclared None true (ob [97]%N SString) [84; 95; 48]%N with Done (t, _) => t | _ => TIface end.
Definition an_b1 : gty := Eval vm_compute in match Gen.gen (fun s => s) (mkCfg false false) [] (fuelG 0 0) MDeclared None true (ob [98]%N SInteger) [84; 95; 49]%N with Done (t, _) => t | _ => TIface end.
Definition an_docs : list (list (str * json)) :=
  [[([97]%N, JStr [120]%N)]; [([98]%N, JInt 1)]; []; [([97]%N, JStr [120]%N); ([98]%N, JStr [121]%N)]].   (* first branch, second branch, neither, first branch but b is not an integer *)

Lemma ob_sobj k t : k <> [] -> (t = SString \/ t = SInteger) -> sobj (fun s => s) (mkCfg false false) [] [] [] 0 (ob k t).
Proof.
  intros Hk Ht. apply sobj_by_shape.
  - cbn. rewrite str_eqb_refl. destruct k; [contradiction|reflexivity].
  - intros k0 p [H|[]]. inversion H; subst. left. destruct Ht as [-> | ->].
    + left. eexists. repeat split; reflexivity.
    + right. left. eexists. exists None. repeat split; try reflexivity; discriminate.
Qed.

Example anyof_exact_inhabited :
  exists t bb fs, Gen.gen (fun s => s) (mkCfg false false) [] 6 MInline None false ex_any ex_t = Done (t, bb) /\ t = TStruct ex_t fs (Some [VAnyOf [an_b0; an_b1]]) /\
    (forall kv, In kv an_docs ->
       is_ok (Exec.dec (fun _ _ => true) [] (S (fuelD 0 0)) t (JObj kv)) =
       existsb (fun b => Valid.valid (fun _ _ => true) [] (fuelV 0 0) b (JObj kv)) [ob [97]%N SString; ob [98]%N SInteger] &&
       is_ok (obind (plain_fields (Exec.dec (fun _ _ => true) [] (fuelD 0 0)) zero fs (JObj kv)) (fun st => addl_block fs (Some (Some kv)) st))) /\
    map (fun kv => is_ok (Exec.dec (fun _ _ => true) [] (S (fuelD 0 0)) t (JObj kv))) an_docs = [true; true; false; false] /\
    map (fun kv => existsb (fun b => Valid.valid (fun _ _ => true) [] (fuelV 0 0) b (JObj kv)) [ob [97]%N SString; ob [98]%N SInteger]) an_docs = [true; true; false; true].
Proof.
  eexists. eexists. eexists. split; [vm_compute; reflexivity|]. split; [reflexivity|]. split; [|split; vm_compute; reflexivity].
  intros kv Hkv.
  apply (anyof_objects_exact (fun s => s) (mkCfg false false) [] (fun _ _ => true) [] [] eq_refl eq_refl 0 0 0).
  - constructor; [|constructor; [|constructor]].
    + exists 0, None, true, [84; 95; 48]%N. eexists. split; [discriminate|]. split; [apply ob_sobj; [discriminate|left; reflexivity]|]. split; [|vm_compute; reflexivity].
      apply dokb_sound. destruct Hkv as [<-|[<-|[<-|[<-|[]]]]]; reflexivity.
    + exists 0, None, true, [84; 95; 49]%N. eexists. split; [discriminate|]. split; [apply ob_sobj; [discriminate|right; reflexivity]|]. split; [|vm_compute; reflexivity].
      apply dokb_sound. destruct Hkv as [<-|[<-|[<-|[<-|[]]]]]; reflexivity.
  - intros bt [<-|[<-|[]]]; destruct Hkv as [<-|[<-|[<-|[<-|[]]]]]; vm_compute; split; discriminate.
Qed.
