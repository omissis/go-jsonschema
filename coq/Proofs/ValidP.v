(* The reference semantics (Spec/Valid.v) through lemmas: one step of [valid] at a node, so that no proof has to unfold the fixpoint. *)
From GJS Require Import Base Bounds Regex Schema Valid.

Section ValidP.
Variable fmt_ok : fmtk -> str -> bool.
Variable defs : list (str * schema).
Notation valid := (Valid.valid fmt_ok defs).

Lemma valid_0 s j : valid 0 s j = false.
Proof. reflexivity. Qed.

Lemma valid_ref f s j x : c_ref (s_con s) = Some x ->
  valid (S f) s j = match lookup x defs with Some d => valid f d j | None => false end.
Proof. intros H. cbn [Valid.valid]. rewrite H. reflexivity. Qed.

(* the keywords that depend on which kind of value the document is: the `match j with` part of [Valid.valid], word for word; [valid_node]
   below, proved by unfolding one step, keeps it in step with [Valid.valid] (Spec/Valid.v) *)
Definition keywords (f : nat) (s : schema) (j : json) : bool :=
  match j with
  | JObj kv =>
      forallb (fun k => match lookup k kv with Some _ => true | None => false end) (c_required (s_con s)) &&
      forallb (fun p =>
                 match lookup (fst p) (s_props s) with
                 | Some ps => valid f ps (snd p)
                 | None =>
                     if s_addl_false s then false
                     else match s_addl s with Some a => valid f a (snd p) | None => true end
                 end) kv
  | JArr l =>
      len_ok (c_min_items (s_con s)) (c_max_items (s_con s)) (length l) &&
      match s_items s with Some it => forallb (valid f it) l | None => true end
  | JStr x =>
      len_ok (c_min_len (s_con s)) (c_max_len (s_con s)) (length x) &&
      match c_pattern (s_con s) with Some p => pat_match p x | None => true end &&
      match c_format (s_con s) with Some k => fmt_ok k x | None => true end
  | JNum n => spec_numeric (c_mult (s_con s)) (c_bounds (s_con s)) (nq n)
  | _ => true
  end.

Lemma valid_node f s j : c_ref (s_con s) = None ->
  valid (S f) s j =
  type_ok (c_types (s_con s)) j &&
  match c_enum (s_con s) with Some vs => existsb (json_eqb j) vs | None => true end &&
  forallb (fun b => valid f b j) (s_all_of s) &&
  match s_any_of s with [] => true | bs => existsb (fun b => valid f b j) bs end &&
  keywords f s j.
Proof. intros H. cbn [Valid.valid]. rewrite H. reflexivity. Qed.

Lemma valid_typed f c props addl af items t j : c_ref c = None -> c_types c = [t] ->
  valid (S f) (Sch c props addl af items [] []) j =
  type_matches t j && match c_enum c with Some vs => existsb (json_eqb j) vs | None => true end && keywords f (Sch c props addl af items [] []) j.
Proof.
  intros Hr Ht. rewrite valid_node by exact Hr. cbn [s_con s_all_of s_any_of]. rewrite Ht. cbn [type_ok existsb forallb]. rewrite orb_false_r, !andb_true_r. reflexivity.
Qed.

Lemma valid_mistyped f s t j : c_ref (s_con s) = None -> c_types (s_con s) = [t] -> type_matches t j = false -> valid f s j = false.
Proof.
  intros Hr Ht Hm. destruct f as [|f]; [reflexivity|]. rewrite (valid_node f s j Hr), Ht. cbn [type_ok existsb]. rewrite Hm. reflexivity.
Qed.

Lemma valid_non_object f s j : c_ref (s_con s) = None -> c_types (s_con s) = [SObject] -> (forall kv, j <> JObj kv) -> valid f s j = false.
Proof. intros Hr Ht Hj. apply (valid_mistyped f s SObject j Hr Ht). destruct j; try reflexivity. contradiction (Hj kv eq_refl). Qed.

Lemma valid_plain_object f s kv :
  c_ref (s_con s) = None -> c_enum (s_con s) = None -> c_types (s_con s) = [SObject] -> s_all_of s = [] -> s_any_of s = [] ->
  s_addl s = None -> s_addl_false s = false -> NoDup (map fst (s_props s)) -> NoDup (map fst kv) ->
  valid (S f) s (JObj kv) =
  forallb (fun k => match lookup k kv with Some _ => true | None => false end) (c_required (s_con s)) &&
  forallb (fun kp => match lookup (fst kp) kv with Some x => valid f (snd kp) x | None => true end) (s_props s).
Proof.
  intros Hr He Ht Hall Hany Ha Haf Np Nk. rewrite (valid_node f s _ Hr), He, Ht, Hall, Hany. cbn [type_ok existsb type_matches orb forallb andb keywords]. rewrite Ha, Haf.
  rewrite <- (forallb_swap (fun ps x => valid f ps x) (s_props s) kv Np Nk). reflexivity.
Qed.

(* C11_spec: the reference semantics reads allOf as conjunction and anyOf as disjunction *)
Lemma spec_composites f c props addl af items allof anyof j :
  c_ref c = None ->
  valid (S f) (Sch c props addl af items allof anyof) j = true ->
  forallb (fun b => valid f b j) allof = true /\
  (anyof = [] \/ existsb (fun b => valid f b j) anyof = true).
Proof.
  intros Hr H. rewrite valid_node in H by exact Hr. cbn [s_all_of s_any_of] in H.
  repeat (apply andb_true_iff in H; destruct H as [H ?]).
  split; [assumption|]. destruct anyof; [left; reflexivity|right; assumption].
Qed.
End ValidP.
