(* Integer enums as properties of an object (the integer enum is a leaf of NestedP, so this is [level_with_leaves] without other properties, the
   depth-0 case of nested_object_exact): one object level whose properties are the leaves of NestedP or integer enums
   ({"type": "integer", "enum": [numbers]}), accepted iff valid - generator, method, tables and decoder against the reference semantics. *)
From GJS Require Import Base Schema GoType Gen Exec Valid ExecP GenP LevelP NestedP EnumP.

Section EnumObjects.
Variable idf : str -> str.
Variable cf : cfg.
Variable defs : list (str * schema).
Variable fmt_ok : fmtk -> str -> bool.
Variable env : list (str * gty).
Variable sdefs : list (str * schema).
Hypothesis Hms : g_minsized cf = false.
Hypothesis Hom : g_only_models cf = false.
Notation gen := (Gen.gen idf cf defs).
Notation dec := (Exec.dec fmt_ok env).
Notation valid := (Valid.valid fmt_ok sdefs).

Theorem int_enum_objects_exact : forall f fd fv self sub s scope t bb kv,
  scope <> [] ->
  plain_object s -> c_types (s_con s) = [SObject] -> s_addl s = None -> s_addl_false s = false ->
  NoDup (map fst (s_props s)) -> incl (c_required (s_con s)) (map fst (s_props s)) ->
  NoDup (map fst (prop_names idf (s_props s))) -> (forall fname kp, In (fname, kp) (prop_names idf (s_props s)) -> fname <> []) ->
  (forall k p, In (k, p) (s_props s) -> leaf p \/ int_enum_leaf p) ->
  NoDup (map fst kv) ->
  (forall k p x, In (k, p) (s_props s) -> lookup k kv = Some x ->
     x <> JNull /\ (str_leaf p -> forall s0, x = JStr s0 -> utf8_len s0 = length s0) /\ (int_leaf p -> int_value x) /\ (arr_leaf p -> arr_value x) /\ (map_leaf p -> map_value x) /\
     (int_enum_leaf p -> int_value x)) ->
  gen (S (S (S f))) MDeclared self sub s scope = Done (t, bb) ->
  is_ok (dec (S (S (S (S fd)))) t (JObj kv)) = valid (S (S (S fv))) s (JObj kv).
Proof.
  intros f fd fv self sub s scope t bb kv Hsc Hp Hty Ha Haf Np Hreq Nn Hne Hprops Nk Hval Hg.
  apply (level_with_leaves idf cf defs fmt_ok env sdefs Hms Hom f fd fv self sub s scope t bb kv (fun _ => False) Hsc Hp Hty Ha Haf Np Hreq Nn Hne); try assumption.
  - (* every property is a leaf: the integer enum is one of the kinds *)
    intros k p Hin. left. destruct (Hprops k p Hin) as [Hl|Hl]; [exact Hl|exact (kind_leaf LIntEnum p Hl)].
  - (* the guard on the values of the document, through leaf_doc_iff *)
    intros k p x Hin Hl. exact (proj1 (leaf_doc_iff p x) (Hval k p x Hin Hl)).
  - (* no properties other than leaves *)
    intros fname k p ty bp x _ [].
Qed.
End EnumObjects.

(* non-vacuity: {level: integer enum [1, 2.5, 3] (required)}; documents level = 1, 2, 3, "1", and none *)
Definition ex_ie_obj : schema :=
  Sch (mkC [SObject] None None [[108]%N] 0 0 0 0 None None (mkBounds None None None None) None None) [([108]%N, ex_int_enum)] None false None [] [].
Definition ex_ie_docs : list (list (str * json)) := [[([108]%N, JInt 1)]; [([108]%N, JInt 2)]; [([108]%N, JInt 3)]; [([108]%N, JStr [49]%N)]; []].

Lemma ex_ie_sobj : sobj (fun s => s) (mkCfg false false) [] [] [] 0 ex_ie_obj.
Proof. exact ex_ie_inner_sobj. Qed.

Example int_enum_objects_inhabited :
  exists t b, Gen.gen (fun s => s) (mkCfg false false) [] 5 MDeclared None false ex_ie_obj [82]%N = Done (t, b) /\
    (forall kv, In kv ex_ie_docs ->
       is_ok (Exec.dec (fun _ _ => true) [] 5 t (JObj kv)) = Valid.valid (fun _ _ => true) [] 4 ex_ie_obj (JObj kv)) /\
    map (fun kv => Valid.valid (fun _ _ => true) [] 4 ex_ie_obj (JObj kv)) ex_ie_docs = [true; false; true; false; false].
Proof.
  (* the depth-0 case of the nesting theorem: 5, 5 and 4 are fuelG 0 2, fuelD 0 1 and fuelV 0 1 *)
  apply (docs_inhabited (fun s => s) (mkCfg false false) [] (fun _ _ => true) [] [] eq_refl eq_refl 0 2 1 1 ex_ie_obj [82]%N ex_ie_docs _ ltac:(discriminate) ex_ie_sobj eq_refl);
    [eexists; eexists; vm_compute; reflexivity|vm_compute; reflexivity].
Qed.
