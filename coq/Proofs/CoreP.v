(* The per-property facts C04-C07 cite: which validators the generator attaches to a field (string, numeric, one per array level; an
   optional field becomes a pointer), and that a struct method enforces them - `required` at every depth of a document. *)
From GJS Require Import Base Bounds Schema GoType Gen Exec Valid ExecP GenP.

Section CoreP.
Variable fmt_ok : fmtk -> str -> bool.
Variable env : list (str * gty).
Variable idf : str -> str.
Variable cf : cfg.
Variable defs : list (str * schema).
Notation dec := (dec fmt_ok env).
Notation gen := (gen idf cf defs).

(* C04: required, at every depth *)
Lemma required_inside c name fs plan k kv T J :
  In (VRequired k) plan -> lookup k kv = None -> inside_star env T J (TStruct (c :: name) fs (Some plan)) (JObj kv) ->
  forall fuel, is_ok (dec fuel T J) = false.
Proof.
  intros Hp Hk Hins. apply (inside_star_fails _ _ _ _ _ _ Hins). intros f0. exact (struct_rejects_missing_required _ _ f0 c name fs plan kv k Hp Hk).
Qed.

(* [s] is a plain object schema generated as a property / array item (generateTypeInline) into
   the type [t]; the object value sits anywhere inside the document [J] decoded as [T] *)
Theorem required_enforced_inline f self sub s scope t b k p T J kv :
  plain_object s -> c_types (s_con s) = [SObject] -> g_only_models cf = false -> scope <> [] ->
  gen (S (S (S f))) MInline self sub s scope = Done (t, b) ->
  In (k, p) (s_props s) -> mem k (c_required (s_con s)) = true -> c_default (s_con p) = None ->
  lookup k kv = None -> inside_star env T J t (JObj kv) ->
  forall fuel, is_ok (dec fuel T J) = false.
Proof.
  intros Hobj Ht Hom Hsc Hg Hin Hreq Hdef Hk Hins.
  destruct (inline_object idf cf defs f self sub s scope t b k p Hobj Ht Hom Hsc Hg Hin Hreq Hdef) as (c & name & fs & plan & -> & Hp).
  exact (required_inside c name fs plan k kv T J Hp Hk Hins).
Qed.

(* the same for a definition or the root (generateDeclaredType) *)
Theorem required_enforced_declared f self sub s scope t b k p T J kv :
  plain_object s -> g_only_models cf = false -> scope <> [] ->
  gen (S (S f)) MDeclared self sub s scope = Done (t, b) ->
  In (k, p) (s_props s) -> mem k (c_required (s_con s)) = true -> c_default (s_con p) = None ->
  lookup k kv = None -> inside_star env T J t (JObj kv) ->
  forall fuel, is_ok (dec fuel T J) = false.
Proof.
  intros Hobj Hom Hsc Hg Hin Hreq Hdef Hk Hins.
  destruct (declared_object idf cf defs f self sub s scope t b k p Hobj Hom Hsc Hg Hin Hreq Hdef) as (c & name & fs & plan & -> & Hp).
  exact (required_inside c name fs plan k kv T J Hp Hk Hins).
Qed.

(* C05, C06: which validators the generator attaches; a pointer field gets the validator of its target with the nil guard *)
Lemma string_validator_attached fname jn c b nillable :
  has_string_kw c = true ->
  field_validators fname jn c b TString nillable = [VString fname jn nillable (c_min_len c) (c_max_len c) (c_pattern c)].
Proof. intros H. cbn. rewrite H. reflexivity. Qed.
Lemma string_validator_attached_ptr fname jn c b nillable :
  has_string_kw c = true ->
  field_validators fname jn c b (TPtr TString) nillable = [VString fname jn true (c_min_len c) (c_max_len c) (c_pattern c)].
Proof. exact (string_validator_attached fname jn c b true). Qed.
Lemma string_validator_absent fname jn c b nillable : has_string_kw c = false -> field_validators fname jn c b TString nillable = [].
Proof. intros H. cbn. rewrite H. reflexivity. Qed.

Lemma numeric_validator_attached_int fname jn c b k nillable :
  has_bound_kw (c_mult c) b = true ->
  field_validators fname jn c b (TInt k) nillable = [VNumeric fname jn nillable true (c_mult c) b].
Proof. intros H. cbn. rewrite H. reflexivity. Qed.
Lemma numeric_validator_attached_float fname jn c b nillable :
  has_bound_kw (c_mult c) b = true ->
  field_validators fname jn c b TFloat nillable = [VNumeric fname jn nillable false (c_mult c) b].
Proof. intros H. cbn. rewrite H. reflexivity. Qed.
Lemma numeric_validator_attached_ptr fname jn c b k nillable :
  has_bound_kw (c_mult c) b = true ->
  field_validators fname jn c b (TPtr (TInt k)) nillable = [VNumeric fname jn true true (c_mult c) b].
Proof. exact (numeric_validator_attached_int fname jn c b k true). Qed.

(* C07, the array loop: one validator per nesting level of an inline array, all with the field's own limits *)
Fixpoint nest (d : nat) (e : gty) : gty := match d with O => e | S d' => TSlice true (nest d' e) end.
Definition not_inline_slice (e : gty) : bool := match e with TSlice true _ | TNullT => false | _ => true end.

Lemma nest_not_null d e : not_inline_slice e = true -> nest d e <> TNullT.
Proof. intros H. destruct d; cbn; [destruct e; try discriminate; congruence|discriminate]. Qed.

Lemma array_validators_nest fname jn mn mx e : not_inline_slice e = true -> (mn <> 0 \/ mx <> 0) ->
  forall d depth, array_validators fname jn mn mx depth (nest d e) = map (fun i => VArray fname jn (depth + i) mn mx) (seq 0 d).
Proof.
  intros He Hl. assert (Hc : negb (Nat.eqb mn 0) || negb (Nat.eqb mx 0) = true).
  { destruct Hl as [H|H]; apply Nat.eqb_neq in H; rewrite H; [reflexivity|apply orb_true_r]. }
  induction d as [|d IH]; intros depth.
  - cbn. destruct e as [| | | | | | | |[] ?| | | | |]; try reflexivity; discriminate.
  - cbn [nest]. rewrite array_validators_slice by (apply nest_not_null; exact He).
    rewrite Hc, IH. cbn [seq map app]. rewrite Nat.add_0_r. f_equal.
    rewrite <- seq_shift, map_map. apply map_ext. intros i. f_equal. lia.
Qed.

(* C05, C06: a struct method enforces the validators of its fields *)
Theorem struct_enforces_string f c0 name fs vs kv fl jn (nillable : bool) mn mx p s :
  NoDup (map f_name fs) -> In fl fs -> f_addl fl = false -> f_name fl <> [] ->
  f_ty fl = (if nillable then TPtr TString else TString) ->
  lookup (f_json fl) kv = Some (JStr s) ->
  In (VString (f_name fl) jn nillable mn mx p) vs -> (forall v', In v' vs -> touches (f_name fl) v' = false) ->
  spec_string_bytes mn mx p s = false ->
  is_ok (dec f (TStruct (c0 :: name) fs (Some vs)) (JObj kv)) = false.
Proof.
  intros Hnd Hin Ha Hn Hty Hl Hv Ht Hs. apply (struct_rejects_field fmt_ok env f c0 name fs vs kv fl _ _ Hnd Hin Ha Hn Hl Hv Ht).
  intros f' x Hd raw st0 Hg. rewrite Hty in Hd.
  apply (dec_maybe_ptr fmt_ok env f' nillable TString (JStr s) (GS s)) in Hd; [subst x|discriminate|reflexivity].
  rewrite (vstring_at _ raw st0 _ jn nillable mn mx p s Hg), Hs. reflexivity.
Qed.

Theorem struct_enforces_number f c0 name fs vs kv fl jn (nillable : bool) mult b n :
  NoDup (map f_name fs) -> In fl fs -> f_addl fl = false -> f_name fl <> [] ->
  f_ty fl = (if nillable then TPtr TFloat else TFloat) ->
  lookup (f_json fl) kv = Some (JNum n) ->
  In (VNumeric (f_name fl) jn nillable false mult b) vs -> (forall v', In v' vs -> touches (f_name fl) v' = false) ->
  accept_numeric false mult b (nq n) = false ->
  is_ok (dec f (TStruct (c0 :: name) fs (Some vs)) (JObj kv)) = false.
Proof.
  intros Hnd Hin Ha Hn Hty Hl Hv Ht Hs. apply (struct_rejects_field fmt_ok env f c0 name fs vs kv fl _ _ Hnd Hin Ha Hn Hl Hv Ht).
  intros f' x Hd raw st0 Hg. rewrite Hty in Hd.
  apply (dec_maybe_ptr fmt_ok env f' nillable TFloat (JNum n) (GF (nq n))) in Hd; [subst x|discriminate|reflexivity].
  rewrite (vnumeric_at _ raw st0 _ jn nillable false mult b (GF (nq n)) (nq n) Hg eq_refl), Hs. reflexivity.
Qed.

Theorem struct_enforces_integer f c0 name fs vs kv fl jn (nillable : bool) mult b k z :
  NoDup (map f_name fs) -> In fl fs -> f_addl fl = false -> f_name fl <> [] ->
  f_ty fl = (if nillable then TPtr (TInt k) else TInt k) ->
  lookup (f_json fl) kv = Some (JInt z) -> in_range k z = true ->
  In (VNumeric (f_name fl) jn nillable true mult b) vs -> (forall v', In v' vs -> touches (f_name fl) v' = false) ->
  accept_numeric true mult b (inject_Z z) = false ->
  is_ok (dec f (TStruct (c0 :: name) fs (Some vs)) (JObj kv)) = false.
Proof.
  intros Hnd Hin Ha Hn Hty Hl Hr Hv Ht Hs. apply (struct_rejects_field fmt_ok env f c0 name fs vs kv fl _ _ Hnd Hin Ha Hn Hl Hv Ht).
  intros f' x Hd raw st0 Hg. rewrite Hty in Hd.
  apply (dec_maybe_ptr fmt_ok env f' nillable (TInt k) (JInt z) (GI z)) in Hd; [subst x|discriminate|intros f0; apply dec_int_lossless, Hr].
  rewrite (vnumeric_at _ raw st0 _ jn nillable true mult b (GI z) (inject_Z z) Hg eq_refl), Hs. reflexivity.
Qed.

Lemma make_field_optional c self fname k p ty bp :
  c_default (s_con p) = None -> mem k (c_required c) = false -> nillable_ty (ref_nillable defs self) ty = false ->
  fst (fst (make_field defs c self fname k p ty bp)) = mkField fname k true (TPtr ty) None false.
Proof. intros H1 H2 H3. rewrite (make_field_no_default defs _ _ _ _ _ _ _ H1), H2, H3. reflexivity. Qed.

End CoreP.
