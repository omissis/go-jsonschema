(* What the run-time model (Model/Exec.v) computes: each validator on the value of its field, the typed decode of an object,
   the Unmarshal method as the sequence of its stages, and [dec] type by type - where whatever fails inside makes the whole fail. *)
From GJS Require Import Base Bounds IntSize Regex Schema GoType Exec Valid.

Definition is_ok {A} (o : outcome A) : bool := match o with Ok _ => true | _ => false end.

Lemma obind_stuck {A B} (o : outcome A) (g : A -> outcome B) :
  (forall a, o = Ok a -> is_ok (g a) = false) -> is_ok (obind o g) = false.
Proof. destruct o; cbn; auto. Qed.

Lemma obind_not_ok {A B} (o : outcome A) (g : A -> outcome B) : is_ok o = false -> is_ok (obind o g) = false.
Proof. intros H. apply obind_stuck. intros a E. rewrite E in H. discriminate H. Qed.

Lemma obind_ok_inv {A B} (o : outcome A) (g : A -> outcome B) : is_ok (obind o g) = true -> exists a, o = Ok a /\ is_ok (g a) = true.
Proof. destruct o; cbn; try discriminate. intros H. eauto. Qed.

Lemma obind_ext {A B} (o : outcome A) (g g' : A -> outcome B) : (forall a, g a = g' a) -> obind o g = obind o g'.
Proof. intros H. destruct o; cbn; auto. Qed.

Lemma is_ok_then {A} (o : outcome unit) (p : outcome A) : is_ok (obind o (fun _ => p)) = is_ok o && is_ok p.
Proof. destruct o; reflexivity. Qed.

Lemma is_ok_map {A B} (o : outcome A) (g : A -> B) : is_ok (obind o (fun a => Ok (g a))) = is_ok o.
Proof. destruct o; reflexivity. Qed.


Lemma ofold_obind {A S} (step : S -> A -> outcome S) (l : list A) (o : outcome S) :
  fold_left (fun acc a => obind acc (fun s => step s a)) l o
  = obind o (fun s => fold_left (fun acc a => obind acc (fun s => step s a)) l (Ok s)).
Proof.
  revert o. induction l as [|x r IH]; intros o; cbn [fold_left]; [destruct o; reflexivity|].
  rewrite IH. destruct o; cbn [obind]; try reflexivity. symmetry. apply IH.
Qed.

Lemma ofold_stuck {A S} (step : S -> A -> outcome S) (l : list A) (o : outcome S) :
  is_ok o = false -> is_ok (fold_left (fun acc a => obind acc (fun s => step s a)) l o) = false.
Proof. intros H. rewrite ofold_obind. apply obind_not_ok, H. Qed.

Lemma ofold_check_cons {A} (f : A -> outcome unit) x (l : list A) :
  fold_left (fun acc a => obind acc (fun _ => f a)) (x :: l) (Ok tt)
  = obind (f x) (fun _ => fold_left (fun acc a => obind acc (fun _ => f a)) l (Ok tt)).
Proof. cbn [fold_left obind]. rewrite (ofold_obind (fun _ a => f a)). destruct (f x) as [[]| | |]; reflexivity. Qed.

Lemma ofold_check_ok {A} (f : A -> outcome unit) (l : list A) :
  is_ok (fold_left (fun acc a => obind acc (fun _ => f a)) l (Ok tt)) = forallb (fun a => is_ok (f a)) l.
Proof. induction l as [|x r IH]; [reflexivity|]. rewrite ofold_check_cons, is_ok_then, IH. reflexivity. Qed.

Lemma ofold_check_dec {A} (f : A -> outcome unit) (p : A -> bool) (l : list A) :
  (forall x, In x l -> f x = if p x then Ok tt else Err) ->
  fold_left (fun acc a => obind acc (fun _ => f a)) l (Ok tt) = if forallb p l then Ok tt else Err.
Proof.
  induction l as [|x r IH]; intros H; [reflexivity|]. rewrite ofold_check_cons, (H x (or_introl eq_refl)). cbn [forallb].
  destruct (p x); [|reflexivity]. apply IH. intros y Hy. apply H. right; exact Hy.
Qed.

Lemma omap_is_ok {A B} (g : A -> outcome B) (l : list A) : is_ok (omap g l) = forallb (fun x => is_ok (g x)) l.
Proof.
  induction l as [|x r IH]; [reflexivity|]. cbn [omap forallb]. rewrite <- IH.
  destruct (g x); cbn [obind is_ok andb]; try reflexivity. destruct (omap g r); reflexivity.
Qed.

Lemma omap_not_ok {A B} (g : A -> outcome B) (l : list A) x : In x l -> is_ok (g x) = false -> is_ok (omap g l) = false.
Proof.
  intros Hin Hx. rewrite omap_is_ok. apply not_true_is_false. intros E. rewrite forallb_forall in E. rewrite (E x Hin) in Hx. discriminate Hx.
Qed.

Lemma omap_Ok {A B} (g : A -> outcome B) (l : list A) (ys : list B) :
  omap g l = Ok ys -> Forall2 (fun x y => g x = Ok y) l ys.
Proof.
  revert ys. induction l as [|x r IH]; intros ys H; cbn in H.
  - inversion H. constructor.
  - destruct (g x) as [y| | |] eqn:E; cbn in H; try discriminate.
    destruct (omap g r) as [ys'| | |] eqn:E2; cbn in H; try discriminate.
    inversion H; subst. constructor; auto.
Qed.

Lemma omap_ext {A B} (g g' : A -> outcome B) (l : list A) : (forall x, g x = g' x) -> omap g l = omap g' l.
Proof. intros H. induction l as [|x r IH]; cbn; [reflexivity|]. rewrite H, IH. reflexivity. Qed.

Lemma get_plain_struct fname vs : fname <> [] -> get_plain fname (GSt vs) = lookup fname vs.
Proof. intros Hn. destruct fname; [contradiction|reflexivity]. Qed.

Lemma get_plain_single (fname : str) v : fname <> [] -> get_plain fname (GSt [(fname, v)]) = Some v.
Proof. intros Hn. rewrite get_plain_struct by exact Hn. apply lookup_same. Qed.

Lemma set_field_keys n (v : gval) fs : map fst (set_field n v fs) = map fst fs.
Proof. induction fs as [|[k x] r IH]; [reflexivity|]. cbn [set_field]. destruct (str_eqb n k); cbn [map fst]; [reflexivity|]. rewrite IH. reflexivity. Qed.

Lemma lookup_set_field_same n (v : gval) fs x : lookup n fs = Some x -> lookup n (set_field n v fs) = Some v.
Proof.
  induction fs as [|[k y] r IH]; cbn; [discriminate|].
  destruct (str_eqb n k) eqn:E; cbn; rewrite ?E; [reflexivity|]. exact IH.
Qed.

Lemma lookup_set_field_other n m (v : gval) fs : n <> m -> lookup n (set_field m v fs) = lookup n fs.
Proof.
  intros H. induction fs as [|[k x] r IH]; cbn; [reflexivity|].
  destruct (str_eqb_spec m k) as [<-|]; cbn.
  - destruct (str_eqb_spec n m); [contradiction|reflexivity].
  - destruct (str_eqb n k); [reflexivity|exact IH].
Qed.

Lemma get_plain_set_other f g d st st' :
  f <> [] -> g <> [] -> f <> g -> set_plain g d st = Some st' -> get_plain f st' = get_plain f st.
Proof.
  intros Hf Hg Hne H. destruct f as [|c n], g as [|c' n']; try contradiction. cbn [set_plain get_plain] in *.
  destruct st; try discriminate. destruct (lookup (c' :: n') fs); inversion H. apply lookup_set_field_other, Hne.
Qed.

Lemma zero_struct n fs p : zero (TStruct n fs p) = GSt (map (fun fl => (f_name fl, zero (f_ty fl))) fs).
Proof. cbn [zero]. f_equal. induction fs as [|[] r IH]; cbn; congruence. Qed.

(* the two length guards of the emitted code (`min != 0 && len < min`, `max != 0 && len > max`) compute [len_ok] *)
Lemma len_guards {A} mn mx n (a b : A) :
  (if negb (Nat.eqb mn 0) && Nat.ltb n mn then b else if negb (Nat.eqb mx 0) && Nat.ltb mx n then b else a)
  = if len_ok mn mx n then a else b.
Proof.
  unfold len_ok. rewrite !Nat.ltb_antisym.
  destruct (Nat.eqb mn 0), (Nat.leb mn n), (Nat.eqb mx 0), (Nat.leb n mx); reflexivity.
Qed.

(* C06: the emitted string check accepts exactly the strings within the length limits that match the pattern *)
Definition spec_string (mn mx : nat) (p : option pat) (s : str) : bool :=
  len_ok mn mx (length s) && match p with Some pt => pat_match pt s | None => true end.

(* what the emitted checks compute: the same, but on the byte length *)
Definition spec_string_bytes (mn mx : nat) (p : option pat) (s : str) : bool :=
  len_ok mn mx (utf8_len s) && match p with Some pt => pat_match pt s | None => true end.

(* [has_string_kw] is the test that attaches the string validator: where it fails the specification asks nothing of a string *)
Lemma no_string_kw c s : has_string_kw c = false -> spec_string (c_min_len c) (c_max_len c) (c_pattern c) s = true.
Proof.
  unfold has_string_kw. intros Ek. apply orb_false_iff in Ek. destruct Ek as [Ek Epat]. apply orb_false_iff in Ek. destruct Ek as [Emn Emx].
  apply negb_false_iff in Emn, Emx. apply Nat.eqb_eq in Emn, Emx. rewrite Emn, Emx. destruct (c_pattern c); [discriminate|]. reflexivity.
Qed.

Lemma check_string_bytes mn mx p s :
  check_string mn mx p s = if spec_string_bytes mn mx p s then Ok tt else Err.
Proof.
  unfold check_string, spec_string_bytes. rewrite len_guards.
  destruct p as [pt|]; [destruct (pat_match pt s)|]; cbn [negb]; rewrite ?andb_true_r, ?andb_false_r; reflexivity.
Qed.

Theorem check_string_exact mn mx p s :
  utf8_len s = length s -> check_string mn mx p s = if spec_string mn mx p s then Ok tt else Err.
Proof. intros H. rewrite check_string_bytes. unfold spec_string_bytes, spec_string. rewrite H. reflexivity. Qed.

Lemma check_string_multibyte_refuted :
  exists mn mx s, spec_string mn mx None s = true /\ check_string mn mx None s = Err.
Proof. exists 0, 3, [233; 233]%N. vm_compute. split; reflexivity. Qed.

(* C07, the array check.  [levels_ok d mn mx v]: every array at nesting level d (1 = v itself) has a length within the
   limits; nil arrays are not checked, and nothing below a nil array exists *)
Fixpoint levels_ok (d : nat) (mn mx : nat) (v : gval) : bool :=
  match d with
  | O => false
  | S O => match v with GL l => len_ok mn mx (length l) | _ => true end
  | S d' => match v with GL l => forallb (levels_ok d' mn mx) l | _ => true end
  end.

Fixpoint slice_shaped (d : nat) (v : gval) : bool :=
  match d with
  | O => true
  | S d' => match v with GNil => true | GL l => forallb (slice_shaped d') l | _ => false end
  end.

Lemma check_array_SS d mn mx v :
  check_array (S (S d)) mn mx v
  = match v with
    | GNil => Ok tt
    | GL l => fold_left (fun acc x => obind acc (fun _ => check_array (S d) mn mx x)) l (Ok tt)
    | _ => Crash
    end.
Proof. reflexivity. Qed.

Lemma check_array_exact d : forall mn mx v, d <> 0 -> slice_shaped d v = true ->
  check_array d mn mx v = if levels_ok d mn mx v then Ok tt else Err.
Proof.
  induction d as [|d IH]; intros mn mx v Hd Hs; [contradiction|].
  destruct d as [|d'].
  - cbn [check_array levels_ok]. destruct v; cbn in Hs; try discriminate; try reflexivity. apply len_guards.
  - rewrite check_array_SS. destruct v; try (cbn in Hs; discriminate); try reflexivity.
    cbn [slice_shaped] in Hs. rewrite forallb_forall in Hs. apply (ofold_check_dec _ (levels_ok (S d') mn mx)).
    intros x Hx. apply IH; [discriminate|apply Hs, Hx].
Qed.

(* the field whose value a validator reads or assigns; [] is `plain` itself *)
Definition v_fname (v : validator) : str :=
  match v with
  | VNullType fn _ _ | VDefault fn _ _ _ | VArray fn _ _ _ _ | VString fn _ _ _ _ _ | VNumeric fn _ _ _ _ _ => fn
  | _ => []
  end.

Definition raw_missing (raw : raw_t) (k : str) : bool :=
  match raw with
  | Some None => true
  | Some (Some kv) => match lookup k kv with None | Some JNull => true | _ => false end
  | None => false
  end.

Section Steps.
Variable dvf : gty -> json -> option gval.

(* every validator but the default assignment reads the value of its own field and nothing else,
   and hands the state on as it was *)
Lemma check_frame raw raw' st st' v :
  v_has_error v = true -> get_plain (v_fname v) st = get_plain (v_fname v) st' ->
  after_step dvf raw st v = obind (after_step dvf raw' st' v) (fun _ => Ok st).
Proof.
  destruct v; try discriminate; intros _ H; cbn [after_step v_fname] in *; rewrite ?H; try reflexivity.
  - (* null *) destruct (get_plain fname st') as [x|]; [|reflexivity]. destruct (check_null depth x); reflexivity.
  - (* array *) destruct (get_plain fname st') as [x|]; [|reflexivity]. destruct (check_array depth mn mx x); reflexivity.
  - (* string *) destruct (get_plain fname st') as [x|]; [|destruct nillable; reflexivity].
    (* live: GS s (a value field) and GP y (a pointer field) *)
    destruct x as [|s| | | | |y| | | |]; try (destruct nillable; reflexivity).
    + (* GS *) destruct nillable; [reflexivity|]. destruct (check_string mn mx pattern s); reflexivity.
    + (* GP; live under the pointer: GS s *) destruct y as [|s| | | | | | | | |], nillable; try reflexivity. destruct (check_string mn mx pattern s); reflexivity.
  - (* numeric *) destruct (get_plain fname st') as [x|]; [|destruct nillable; reflexivity].
    (* live: GI z and GF q (a value field), GP y (a pointer field) *)
    destruct x as [| | |z|q| |y| | | |], nillable; try reflexivity; cbn [num_of].
    + (* GI *) destruct (accept_numeric _ _ _ _); reflexivity.
    + (* GF *) destruct (accept_numeric _ _ _ _); reflexivity.
    + (* GP *) destruct (num_of y); [|reflexivity]. destruct (accept_numeric _ _ _ _); reflexivity.
Qed.

Lemma after_step_same raw st v st' : v_has_error v = true -> after_step dvf raw st v = Ok st' -> st' = st.
Proof. intros Hv H. rewrite (check_frame raw raw st st v Hv eq_refl) in H. destruct (after_step dvf raw st v); inversion H. reflexivity. Qed.

(* the value of a required (value-typed) field is the value itself, that of an optional or nullable one a pointer to it *)
Lemma vstring_at raw st fname jname (nillable : bool) mn mx p s :
  get_plain fname st = Some (if nillable then GP (GS s) else GS s) ->
  after_step dvf raw st (VString fname jname nillable mn mx p) = if spec_string_bytes mn mx p s then Ok st else Err.
Proof. intros H. destruct nillable; cbn [after_step]; rewrite H, check_string_bytes; destruct (spec_string_bytes mn mx p s); reflexivity. Qed.

Lemma vstring_nil raw st fname jname mn mx p :
  get_plain fname st = Some GNil -> after_step dvf raw st (VString fname jname true mn mx p) = Ok st.
Proof. intros H. cbn [after_step]. rewrite H. reflexivity. Qed.

Lemma vnumeric_at raw st fname jname (nillable : bool) rnd mult b x q :
  get_plain fname st = Some (if nillable then GP x else x) -> num_of x = Some q ->
  after_step dvf raw st (VNumeric fname jname nillable rnd mult b) = if accept_numeric rnd mult b q then Ok st else Err.
Proof.
  intros H Hq. destruct nillable; cbn [after_step]; rewrite H; [rewrite Hq; reflexivity|].
  destruct x; try discriminate Hq; rewrite Hq; reflexivity.
Qed.

Lemma vnumeric_nil raw st fname jname rnd mult b :
  get_plain fname st = Some GNil -> after_step dvf raw st (VNumeric fname jname true rnd mult b) = Ok st.
Proof. intros H. cbn [after_step]. rewrite H. reflexivity. Qed.

Lemma varray_nil raw st fname jname depth mn mx :
  depth <> 0 -> get_plain fname st = Some GNil -> after_step dvf raw st (VArray fname jname depth mn mx) = Ok st.
Proof. intros Hd H. cbn [after_step]. rewrite H. destruct depth as [|[|d]]; [contradiction| |]; reflexivity. Qed.

Lemma varray_value raw st fname jname depth mn mx v :
  depth <> 0 -> get_plain fname st = Some v -> slice_shaped depth v = true ->
  after_step dvf raw st (VArray fname jname depth mn mx) = if levels_ok depth mn mx v then Ok st else Err.
Proof. intros Hd H Hs. cbn [after_step]. rewrite H, check_array_exact by assumption. destruct (levels_ok depth mn mx v); reflexivity. Qed.

Lemma after_step_default raw st fname jname ty dv : raw <> None ->
  after_step dvf raw st (VDefault fname jname ty dv)
  = if raw_missing raw jname
    then match dvf ty dv with
         | Some d => match set_plain fname d st with Some st' => Ok st' | None => Crash end
         | None => Crash
         end
    else Ok st.
Proof. destruct raw as [[kv|]|]; [reflexivity|reflexivity|congruence]. Qed.

Lemma vdefault_applies raw st fname jname ty dv d st' :
  raw_missing raw jname = true -> dvf ty dv = Some d -> set_plain fname d st = Some st' ->
  after_step dvf raw st (VDefault fname jname ty dv) = Ok st'.
Proof.
  intros Hm Hd Hs. destruct raw as [r|]; [|discriminate Hm]. rewrite after_step_default, Hm, Hd, Hs by discriminate. reflexivity.
Qed.

Lemma vdefault_present raw st fname jname ty dv :
  raw <> None -> raw_missing raw jname = false -> after_step dvf raw st (VDefault fname jname ty dv) = Ok st.
Proof. intros Hr Hm. rewrite after_step_default, Hm by exact Hr. reflexivity. Qed.
End Steps.

Lemma run_after_cons dvf v r raw st : run_after dvf (v :: r) raw st = obind (after_step dvf raw st v) (run_after dvf r raw).
Proof. unfold run_after. cbn [fold_left obind]. apply ofold_obind. Qed.

Lemma run_before_exact decf raw j vs : is_ok (run_before decf vs raw j) = forallb (fun v => is_ok (before_step decf raw j v)) vs.
Proof. exact (ofold_check_ok (before_step decf raw j) vs). Qed.

Lemma after_step_raw_irrelevant dvf raw raw' st v :
  match v with VDefault _ _ _ _ => False | _ => True end -> after_step dvf raw st v = after_step dvf raw' st v.
Proof. destruct v; try reflexivity. contradiction. Qed.

Lemma run_after_raw_irrelevant dvf raw raw' vs : forall st,
  (forall v, In v vs -> match v with VDefault _ _ _ _ => False | _ => True end) -> run_after dvf vs raw st = run_after dvf vs raw' st.
Proof.
  induction vs as [|v r IH]; intros st H; [reflexivity|]. rewrite !run_after_cons, (after_step_raw_irrelevant dvf raw raw' st v (H v (or_introl eq_refl))).
  destruct (after_step dvf raw' st v); cbn [obind]; try reflexivity. apply IH. intros v' Hv'. apply H. right. exact Hv'.
Qed.

Lemma before_step_not_before decf raw j v : v_before v = false -> before_step decf raw j v = Ok tt.
Proof. destruct v; try discriminate; reflexivity. Qed.

Lemma run_before_none decf vs raw j : existsb v_before vs = false -> run_before decf vs raw j = Ok tt.
Proof.
  unfold run_before. induction vs as [|v r IH]; intros H; [reflexivity|]. cbn [existsb] in H. apply orb_false_iff in H. destruct H as [Hv Hr].
  rewrite ofold_check_cons, (before_step_not_before decf raw j v Hv). exact (IH Hr).
Qed.

Section Reject.
Variable dvf : gty -> json -> option gval.

(* [touches fname v]: v assigns the field fname, or `plain` itself (a default on a named non-struct type); only a default assigns *)
Definition touches (fname : str) (v : validator) : bool :=
  match v with VDefault fn _ _ _ => str_eqb fn fname || match fn with [] => true | _ => false end | _ => false end.

Lemma after_step_keeps raw st st' v fname x :
  fname <> [] -> touches fname v = false ->
  after_step dvf raw st v = Ok st' -> get_plain fname st = Some x -> get_plain fname st' = Some x.
Proof.
  intros Hn Ht H Hg. destruct (v_has_error v) eqn:Hv; [rewrite (after_step_same dvf _ _ _ _ Hv H); exact Hg|].
  destruct v; try discriminate Hv. cbn [touches] in Ht. apply orb_false_iff in Ht. destruct Ht as [Ht Ht0]. apply str_eqb_neq in Ht.
  destruct raw as [r|]; [|discriminate H]. rewrite after_step_default in H by discriminate.
  destruct (raw_missing (Some r) jname); [|inversion H; subst; exact Hg].
  destruct (dvf ty dv); [|discriminate]. destruct (set_plain fname0 g st) eqn:ES; inversion H; subst.
  rewrite <- Hg. apply (get_plain_set_other fname fname0 g st st' Hn); [destruct fname0; discriminate|congruence|exact ES].
Qed.

Lemma run_after_rejects raw vs : forall st fname x v,
  fname <> [] -> get_plain fname st = Some x -> In v vs ->
  (forall v', In v' vs -> touches fname v' = false) ->
  (forall st0, get_plain fname st0 = Some x -> is_ok (after_step dvf raw st0 v) = false) ->
  is_ok (run_after dvf vs raw st) = false.
Proof.
  induction vs as [|v0 r IH]; intros st fname x v Hn Hg Hin Ht Hrej; [contradiction|].
  rewrite run_after_cons. apply obind_stuck. intros st' E. destruct Hin as [->|Hin].
  - specialize (Hrej st Hg). rewrite E in Hrej. discriminate Hrej.
  - apply (IH st' fname x v Hn); [|exact Hin| |exact Hrej].
    + apply (after_step_keeps raw st st' v0 fname x Hn (Ht v0 (or_introl eq_refl)) E Hg).
    + intros v' Hv'. apply Ht. right; exact Hv'.
Qed.
End Reject.

(* C04: a present key satisfies `required` whatever its value (null included), and a null document skips the check *)
Lemma before_required_present decf kv j k x : lookup k kv = Some x -> before_step decf (Some (Some kv)) j (VRequired k) = Ok tt.
Proof. intros H. cbn. rewrite H. reflexivity. Qed.
Lemma before_required_null_doc decf j k : before_step decf (Some None) j (VRequired k) = Ok tt.
Proof. reflexivity. Qed.

Lemma run_before_required decf kv j vs k :
  In (VRequired k) vs -> lookup k kv = None -> is_ok (run_before decf vs (Some (Some kv)) j) = false.
Proof.
  intros Hin Hk. rewrite run_before_exact. destruct (forallb _ vs) eqn:E; [|reflexivity].
  rewrite forallb_forall in E. specialize (E _ Hin). cbn in E. rewrite Hk in E. discriminate E.
Qed.

Lemma existsb_before_required vs k : In (VRequired k) vs -> existsb v_before vs = true.
Proof. intros H. apply existsb_exists. exists (VRequired k). split; [exact H|reflexivity]. Qed.

(* C11: with every branch decided (no crash, fuel enough), the anyOf check is the disjunction over the branch types *)
Lemma anyof_step decf raw j branches :
  (forall bt, In bt branches -> decf bt j <> Crash /\ decf bt j <> NoFuel) ->
  before_step decf raw j (VAnyOf branches) = if existsb (fun bt => is_ok (decf bt j)) branches then Ok tt else Err.
Proof.
  intros H. cbn [before_step]. rewrite !existsb_map.
  rewrite (existsb_false (fun bt => match decf bt j with Crash => true | _ => false end)).
  2: { intros x Hx. destruct (H x Hx) as [Hc _]. destruct (decf x j); try reflexivity. congruence. }
  rewrite (existsb_false (fun bt => match decf bt j with NoFuel => true | _ => false end)).
  2: { intros x Hx. destruct (H x Hx) as [_ Hn]. destruct (decf x j); try reflexivity. congruence. }
  unfold is_ok. destruct (existsb _ branches); reflexivity.
Qed.

(* and one that passes names a branch that accepts, whatever the other branches do *)
Lemma anyof_step_ok decf raw j branches :
  before_step decf raw j (VAnyOf branches) = Ok tt -> exists bt, In bt branches /\ is_ok (decf bt j) = true.
Proof.
  cbn [before_step]. rewrite !existsb_map. destruct (existsb _ branches); [discriminate|]. destruct (existsb _ branches); [discriminate|].
  destruct (existsb (fun bt => match decf bt j with Ok _ => true | _ => false end) branches) eqn:E; [|discriminate].
  intros _. apply existsb_exists in E. exact E.
Qed.

Lemma before_step_ext decf decf' raw j v : (forall t x, decf t x = decf' t x) -> before_step decf raw j v = before_step decf' raw j v.
Proof. intros H. destruct v; try reflexivity. cbn [before_step]. rewrite (map_ext _ _ (fun bt => H bt j)). reflexivity. Qed.

Definition field_value (decf : gty -> json -> outcome gval) (zf : gty -> gval) (kv : list (str * json)) (fl : field) : outcome gval :=
  if f_addl fl then Ok (zf (f_ty fl))
  else match lookup (f_json fl) kv with Some x => decf (f_ty fl) x | None => Ok (zf (f_ty fl)) end.

Lemma plain_fields_eq decf zf fs kv :
  plain_fields decf zf fs (JObj kv)
  = obind (omap (fun fl => obind (field_value decf zf kv fl) (fun v => Ok (f_name fl, v))) fs) (fun vs => Ok (GSt vs)).
Proof.
  cbn [plain_fields]. f_equal. apply omap_ext. intros fl. unfold field_value.
  destruct (f_addl fl); [reflexivity|]. destruct (lookup (f_json fl) kv); reflexivity.
Qed.

Lemma plain_fields_obj decf zf fs kv st : plain_fields decf zf fs (JObj kv) = Ok st ->
  exists vs, st = GSt vs /\ Forall2 (fun fl p => fst p = f_name fl /\ field_value decf zf kv fl = Ok (snd p)) fs vs.
Proof.
  rewrite plain_fields_eq.
  destruct (omap _ fs) as [vs| | |] eqn:E; try discriminate. intros H. inversion H. exists vs. split; [reflexivity|].
  apply (Forall2_impl_In _ _ _ _ (omap_Ok _ _ _ E)). intros fl p _ Hp.
  destruct (field_value decf zf kv fl); try discriminate Hp. inversion Hp. split; reflexivity.
Qed.

Lemma plain_fields_names decf zf fs kv flds : plain_fields decf zf fs (JObj kv) = Ok (GSt flds) -> map fst flds = map f_name fs.
Proof.
  intros H. destruct (plain_fields_obj decf zf fs kv _ H) as (vs & E & HF). inversion E; subst vs. clear H E.
  symmetry. apply (Forall2_map_eq _ _ _ _ _ HF). intros fl p _ [Hk _]. symmetry. exact Hk.
Qed.

Lemma plain_fields_get decf zf fs kv fl st :
  NoDup (map f_name fs) -> In fl fs -> f_name fl <> [] -> plain_fields decf zf fs (JObj kv) = Ok st ->
  exists v, get_plain (f_name fl) st = Some v /\ field_value decf zf kv fl = Ok v.
Proof.
  intros Hnd Hin Hn H. destruct (plain_fields_obj decf zf fs kv st H) as (vs & -> & HF). clear H.
  rewrite get_plain_struct by exact Hn. clear Hn.
  induction HF as [|f0 [k v] l vs [Hk Hv] _ IH]; [contradiction|]. cbn [fst snd] in Hk, Hv. subst k.
  inversion Hnd as [|? ? Hnot Hnd']; subst. cbn [lookup]. destruct Hin as [->|Hin]; [rewrite str_eqb_refl; eauto|].
  destruct (str_eqb_spec (f_name fl) (f_name f0)) as [E|]; [|exact (IH Hnd' Hin)].
  exfalso. apply Hnot. rewrite <- E. exact (List.in_map f_name l fl Hin).
Qed.

(* C02: a field is bound to its key *)
Lemma plain_fields_state decf zf fs kv fl xj x st :
  NoDup (map f_name fs) -> In fl fs -> f_addl fl = false -> f_name fl <> [] ->
  lookup (f_json fl) kv = Some xj -> decf (f_ty fl) xj = Ok x ->
  plain_fields decf zf fs (JObj kv) = Ok st -> get_plain (f_name fl) st = Some x.
Proof.
  intros Hnd Hin Ha Hn Hl Hd H. destruct (plain_fields_get decf zf fs kv fl st Hnd Hin Hn H) as (v & Hg & Hv).
  unfold field_value in Hv. rewrite Ha, Hl, Hd in Hv. inversion Hv; subst v. exact Hg.
Qed.

Lemma plain_fields_type decf zf fs j : j <> JNull -> (forall kv, j <> JObj kv) -> is_ok (plain_fields decf zf fs j) = false.
Proof. intros Hn Ha. destruct j; try reflexivity; [destruct (Hn eq_refl)|destruct (Ha _ eq_refl)]. Qed.

Lemma plain_fields_key_fails decf zf fs kv fl x :
  In fl fs -> f_addl fl = false -> lookup (f_json fl) kv = Some x -> is_ok (decf (f_ty fl) x) = false ->
  is_ok (plain_fields decf zf fs (JObj kv)) = false.
Proof.
  intros Hin Ha Hl Hd. cbn [plain_fields]. apply obind_not_ok.
  apply omap_not_ok with (x := fl); [exact Hin|]. rewrite Ha, Hl. apply obind_not_ok. exact Hd.
Qed.

Lemma plain_fields_ext decf decf' zf fs j : (forall t x, decf t x = decf' t x) -> plain_fields decf zf fs j = plain_fields decf' zf fs j.
Proof.
  intros H. destruct j; try reflexivity. cbn [plain_fields]. f_equal.
  apply omap_ext. intros fl. destruct (f_addl fl); [reflexivity|]. destruct (lookup (f_json fl) kv); [|reflexivity]. rewrite H. reflexivity.
Qed.

Lemma run_method_decode_fails decf zf dvf fs under vs j :
  is_ok (match fs with Some fl => plain_fields decf zf fl j | None => decf under j end) = false ->
  is_ok (run_method decf zf dvf fs under vs j) = false.
Proof. intros H. unfold run_method. apply obind_stuck. intros raw _. apply obind_stuck. intros _ _. apply obind_not_ok, H. Qed.

(* C04: a method whose validator list contains `required k` never accepts an object without key k *)
Theorem method_rejects_missing_required decf zf dvf fs under vs kv k :
  In (VRequired k) vs -> lookup k kv = None ->
  is_ok (run_method decf zf dvf fs under vs (JObj kv)) = false.
Proof.
  intros Hin Hk. unfold run_method. rewrite (existsb_before_required vs k Hin). cbn [orb obind].
  apply obind_not_ok, run_before_required with k; assumption.
Qed.

(* a struct method never accepts an object in which one of its validators rejects whatever one of the keys decodes to
   (no default on that field) *)
Theorem method_rejects_field decf zf dvf fs under vs kv fl xj v :
  NoDup (map f_name fs) -> In fl fs -> f_addl fl = false -> f_name fl <> [] ->
  lookup (f_json fl) kv = Some xj ->
  In v vs -> (forall v', In v' vs -> touches (f_name fl) v' = false) ->
  (forall x, decf (f_ty fl) xj = Ok x -> forall raw st0, get_plain (f_name fl) st0 = Some x -> is_ok (after_step dvf raw st0 v) = false) ->
  is_ok (run_method decf zf dvf (Some fs) under vs (JObj kv)) = false.
Proof.
  intros Hnd Hin Ha Hn Hl Hv Ht Hrej. unfold run_method.
  apply obind_stuck. intros raw _. apply obind_stuck. intros _ _. apply obind_stuck. intros st EP. apply obind_not_ok.
  destruct (plain_fields_get decf zf fs kv fl st Hnd Hin Hn EP) as (x & Hg & Hx). unfold field_value in Hx. rewrite Ha, Hl in Hx.
  exact (run_after_rejects dvf raw vs st (f_name fl) x v Hn Hg Hv Ht (Hrej x Hx raw)).
Qed.

(* C17: yaml_formatter.go and json_formatter.go emit the same sequence (raw map, before-validators, typed
   decode into the shadow type, after-validators, additional-properties block, assignment); they
   differ only in the library call that decodes a component.  A method is a function of what its steps do:
   of the decoders of the components and, validator by validator, of the two flags and of the before- and after-step *)
Theorem run_method_congr (R : validator -> validator -> Prop) decf decf' zf dvf fs under vs1 vs2 j :
  (forall t x, decf t x = decf' t x) ->
  (forall v1 v2, R v1 v2 -> v_before v1 = v_before v2 /\ v_raw_after v1 = v_raw_after v2 /\
                            (forall raw, before_step decf raw j v1 = before_step decf' raw j v2) /\
                            (forall raw st, after_step dvf raw st v1 = after_step dvf raw st v2)) ->
  Forall2 R vs1 vs2 -> run_method decf zf dvf fs under vs1 j = run_method decf' zf dvf fs under vs2 j.
Proof.
  intros Hd HR H. unfold run_method.
  rewrite (existsb_Forall2 R v_before v_before vs1 vs2 H), (existsb_Forall2 R v_raw_after v_raw_after vs1 vs2 H)
    by (intros a b _ Hab; apply (HR a b Hab)).
  assert (Hb : forall raw, run_before decf vs1 raw j = run_before decf' vs2 raw j).
  { intros raw. apply (fold_left_Forall2 R _ _ vs1 vs2 H). intros o v1 v2 Hab. apply obind_ext. intros _. apply (HR v1 v2 Hab). }
  assert (Ha : forall raw st, run_after dvf vs1 raw st = run_after dvf vs2 raw st).
  { intros raw st. apply (fold_left_Forall2 R _ _ vs1 vs2 H). intros o v1 v2 Hab. apply obind_ext. intros st0. apply (HR v1 v2 Hab). }
  assert (Ht : match fs with Some fl => plain_fields decf zf fl j | None => decf under j end
               = match fs with Some fl => plain_fields decf' zf fl j | None => decf' under j end)
    by (destruct fs; [apply plain_fields_ext; auto|auto]).
  apply obind_ext. intros raw. rewrite Hb. apply obind_ext. intros _. rewrite Ht. apply obind_ext. intros st. rewrite Ha. reflexivity.
Qed.

Theorem run_method_ext decf decf' zf dvf fs under vs j :
  (forall t x, decf t x = decf' t x) -> run_method decf zf dvf fs under vs j = run_method decf' zf dvf fs under vs j.
Proof.
  intros H. apply (run_method_congr eq); [exact H| |apply Forall2_diag; reflexivity].
  intros v ? <-. repeat split. intros raw. apply before_step_ext, H.
Qed.

Section Dec.
Variable fmt_ok : fmtk -> str -> bool.
Variable env : list (str * gty).
Notation dec := (dec fmt_ok env).

(* C02: values are decoded without loss *)
Lemma dec_string_lossless f s : dec (S f) TString (JStr s) = Ok (GS s).
Proof. reflexivity. Qed.
Lemma dec_bool_lossless f b : dec (S f) TBool (JBool b) = Ok (GB b).
Proof. reflexivity. Qed.
Lemma dec_float_lossless f n : dec (S f) TFloat (JNum n) = Ok (GF (nq n)).
Proof. reflexivity. Qed.
Lemma dec_int_lossless f k z : in_range k z = true -> dec (S f) (TInt k) (JInt z) = Ok (GI z).
Proof. intros H. unfold JInt. cbn [Exec.dec nlit_int nq]. rewrite Qis_int_inject, Qfloor_inject, H. reflexivity. Qed.
Lemma dec_fmt_lossless f k s : fmt_ok k s = true -> dec (S f) (TFmt k) (JStr s) = Ok (GFm (Some s)).
Proof. intros H. cbn. rewrite H. reflexivity. Qed.
Lemma dec_iface_lossless f j : j <> JNull -> dec (S f) TIface j = Ok (GJ j).
Proof. intros H. destruct j; try reflexivity. congruence. Qed.
Lemma dec_ptr f u j : j <> JNull -> dec (S f) (TPtr u) j = obind (dec f u j) (fun v => Ok (GP v)).
Proof. intros H. destruct j; try reflexivity. congruence. Qed.
Lemma dec_ptr_lossless f u j v : j <> JNull -> dec f u j = Ok v -> dec (S f) (TPtr u) j = Ok (GP v).
Proof. intros H E. rewrite dec_ptr, E by exact H. reflexivity. Qed.

(* C10: references are transparent at run time *)
Lemma dec_ref_transparent f d u j : lookup d env = Some u -> dec (S f) (TRef d) j = dec f u j.
Proof. intros H. cbn [Exec.dec]. rewrite H. reflexivity. Qed.

Lemma dec_slice f inl e x : dec (S f) (TSlice inl e) x =
  match x with JNull => Ok GNil | JArr l => obind (omap (dec f e) l) (fun vs => Ok (GL vs)) | _ => Err end.
Proof. reflexivity. Qed.
Lemma dec_map f e x : dec (S f) (TMap e) x =
  match x with
  | JNull => Ok GNil
  | JObj kv => obind (omap (fun p => obind (dec f e (snd p)) (fun v => Ok (fst p, v))) kv) (fun m => Ok (GM m))
  | _ => Err
  end.
Proof. reflexivity. Qed.
Lemma dec_named f n u x : dec (S f) (TNamed n u None) x = dec f u x.
Proof. reflexivity. Qed.
Lemma dec_enum f n c es x :
  dec (S f) (TEnum n c false es) x = obind (dec f c x) (fun v => if existsb (enum_eq c v) es then Ok v else Err).
Proof. reflexivity. Qed.

(* C08 in one: an enum type accepts exactly what its carrier decodes to a member of the table; [m] is whether the document is a listed
   value, by whatever test the caller's specification uses *)
Lemma enum_exact f sc c tbl x (m : bool) :
  (forall v, dec f c x = Ok v -> existsb (enum_eq c v) tbl = m) ->
  is_ok (dec (S f) (TEnum sc c false tbl) x) = is_ok (dec f c x) && m.
Proof.
  intros H. rewrite dec_enum. destruct (dec f c x) as [v| | |]; try reflexivity. cbn [obind is_ok andb].
  rewrite (H v eq_refl). destruct m; reflexivity.
Qed.

(* C03: a value of the wrong JSON type is rejected, null is accepted where the type is nillable *)
Definition base_accepts (t : gty) (j : json) : bool :=
  match t, j with
  | TString, JStr _ | TBool, JBool _ | TFloat, JNum _ => true
  | TInt k, JNum n => nlit_int n && Qis_int (nq n) && in_range k (Qfloor_z (nq n))
  | TFmt k, JStr s => fmt_ok k s
  | _, _ => false
  end.
Definition is_base (t : gty) : bool := match t with TString | TBool | TFloat | TInt _ | TFmt _ => true | _ => false end.

Theorem dec_base_type f t j : is_base t = true -> j <> JNull -> base_accepts t j = false -> is_ok (dec f t j) = false.
Proof.
  intros Hb Hn Ha. destruct f as [|f]; [reflexivity|].
  destruct t; try discriminate; destruct j; cbn in *; try reflexivity; try congruence; rewrite Ha; reflexivity.
Qed.

Theorem dec_slice_type f inl e j : j <> JNull -> (forall l, j <> JArr l) -> is_ok (dec f (TSlice inl e) j) = false.
Proof. intros Hn Ha. destruct f; [reflexivity|]. destruct j; try reflexivity; [destruct (Hn eq_refl)|destruct (Ha _ eq_refl)]. Qed.
Theorem dec_map_type f e j : j <> JNull -> (forall kv, j <> JObj kv) -> is_ok (dec f (TMap e) j) = false.
Proof. intros Hn Ha. destruct f; [reflexivity|]. destruct j; try reflexivity; [destruct (Hn eq_refl)|destruct (Ha _ eq_refl)]. Qed.

Theorem dec_struct_type f name fs plan j : j <> JNull -> (forall kv, j <> JObj kv) -> is_ok (dec f (TStruct name fs plan) j) = false.
Proof.
  intros Hn Ha. destruct f; [reflexivity|]. cbn [Exec.dec].
  assert (Hp : forall decf zf, is_ok (plain_fields decf zf fs j) = false) by (intros; apply plain_fields_type; assumption).
  destruct name as [|c name]; [apply Hp|]. destruct plan as [vs|]; [|apply Hp]. apply run_method_decode_fails, Hp.
Qed.

Theorem dec_null_nil f t : (match t with TPtr _ | TSlice _ _ | TMap _ | TIface | TNullT => true | _ => false end) = true ->
  dec (S f) t JNull = Ok GNil.
Proof. intros H. destruct t; try discriminate; reflexivity. Qed.

(* C08: an enum type accepts exactly what its carrier decodes to a member of the table *)
Theorem enum_rejects_non_member f name c w vals j :
  (forall f v, dec f c j = Ok v -> existsb (enum_eq c v) vals = false) ->
  is_ok (dec f (TEnum name c w vals) j) = false.
Proof.
  intros H. destruct f; [reflexivity|]. cbn [Exec.dec]. destruct (dec f c j) eqn:E; cbn [obind is_ok]; try reflexivity.
  rewrite (H f a E). reflexivity.
Qed.
Theorem enum_accepts_member f name c vals j v :
  dec f c j = Ok v -> existsb (enum_eq c v) vals = true -> dec (S f) (TEnum name c false vals) j = Ok v.
Proof. intros H1 H2. cbn [Exec.dec]. rewrite H1. cbn [obind]. rewrite H2. reflexivity. Qed.

(* C04: the struct method, for every fuel *)
Theorem struct_rejects_missing_required f c name fs vs kv k :
  In (VRequired k) vs -> lookup k kv = None -> is_ok (dec f (TStruct (c :: name) fs (Some vs)) (JObj kv)) = false.
Proof. intros Hin Hk. destruct f; [reflexivity|]. cbn [Exec.dec]. apply method_rejects_missing_required with (k := k); assumption. Qed.

Theorem struct_rejects_field f c0 name fs vs kv fl xj v :
  NoDup (map f_name fs) -> In fl fs -> f_addl fl = false -> f_name fl <> [] ->
  lookup (f_json fl) kv = Some xj -> In v vs -> (forall v', In v' vs -> touches (f_name fl) v' = false) ->
  (forall f' x, dec f' (f_ty fl) xj = Ok x -> forall raw st0, get_plain (f_name fl) st0 = Some x ->
     is_ok (after_step (default_val env dv_fuel) raw st0 v) = false) ->
  is_ok (dec f (TStruct (c0 :: name) fs (Some vs)) (JObj kv)) = false.
Proof.
  intros Hnd Hin Ha Hn Hl Hv Ht Hrej. destruct f as [|f]; [reflexivity|]. cbn [Exec.dec].
  exact (method_rejects_field _ _ _ fs _ vs kv fl xj v Hnd Hin Ha Hn Hl Hv Ht (Hrej f)).
Qed.

(* required / defaulted positions hold the value itself; optional and nullable ones a pointer to it *)
Lemma dec_maybe_ptr f (nillable : bool) t j v x : j <> JNull -> (forall f', dec (S f') t j = Ok v) ->
  dec f (if nillable then TPtr t else t) j = Ok x -> x = if nillable then GP v else v.
Proof.
  intros Hj Hv H. destruct f as [|f]; [discriminate H|]. destruct nillable; [|rewrite Hv in H; inversion H; reflexivity].
  rewrite dec_ptr in H by exact Hj. destruct f as [|f]; [discriminate H|]. rewrite Hv in H. inversion H. reflexivity.
Qed.

(* [inside t j t' j']: decoding j into t decodes j' into t' on the way (one step) *)
Inductive inside : gty -> json -> gty -> json -> Prop :=
| in_ptr u j : j <> JNull -> inside (TPtr u) j u j
| in_slice inl e l x : In x l -> inside (TSlice inl e) (JArr l) e x
| in_map e kv k x : In (k, x) kv -> inside (TMap e) (JObj kv) e x
| in_field name fs plan kv fl x : In fl fs -> f_addl fl = false -> lookup (f_json fl) kv = Some x ->
    inside (TStruct name fs plan) (JObj kv) (f_ty fl) x
| in_named name u plan j : inside (TNamed name u plan) j u j
| in_enum name c w vals j : inside (TEnum name c w vals) j c j
| in_ref d u j : lookup d env = Some u -> inside (TRef d) j u j.

Theorem inside_fails t j t' j' : inside t j t' j' ->
  (forall f, is_ok (dec f t' j') = false) -> forall f, is_ok (dec f t j) = false.
Proof.
  intros Hin Hinner f. destruct f as [|f]; [reflexivity|].
  destruct Hin; cbn [Exec.dec].
  - (* pointer *) destruct j; try congruence; apply obind_not_ok; apply Hinner.
  - (* slice *) apply obind_not_ok. eapply omap_not_ok; eauto.
  - (* map *) apply obind_not_ok. apply omap_not_ok with (x := (k, x)); [assumption|]. cbn. apply obind_not_ok. apply Hinner.
  - (* field *) assert (Hp : is_ok (plain_fields (dec f) zero fs (JObj kv)) = false)
      by (eapply plain_fields_key_fails; eauto).
    destruct name as [|c name]; [exact Hp|]. destruct plan as [vs|]; [|exact Hp].
    apply run_method_decode_fails. exact Hp.
  - (* named *) destruct plan as [vs|]; [|apply Hinner]. apply run_method_decode_fails. apply Hinner.
  - (* enum *) apply obind_not_ok. apply Hinner.
  - (* ref *) rewrite H. apply Hinner.
Qed.

(* any number of steps: "at every nesting depth" *)
Inductive inside_star : gty -> json -> gty -> json -> Prop :=
| is_refl t j : inside_star t j t j
| is_step t j t1 j1 t2 j2 : inside t j t1 j1 -> inside_star t1 j1 t2 j2 -> inside_star t j t2 j2.

Theorem inside_star_fails t j t' j' : inside_star t j t' j' ->
  (forall f, is_ok (dec f t' j') = false) -> forall f, is_ok (dec f t j) = false.
Proof. induction 1 as [|t j t1 j1 t2 j2 H1 _ IH]; intros H; [exact H|]. eapply inside_fails; eauto. Qed.

(* the all-or-nothing shape of a method: the receiver is assigned once, last, from a local value *)
Definition unmarshal_into (dest : gval) (f : nat) (t : gty) (j : json) : gval * bool :=
  match dec f t j with Ok v => (v, true) | _ => (dest, false) end.
Lemma unmarshal_into_atomic dest f t j : snd (unmarshal_into dest f t j) = false -> fst (unmarshal_into dest f t j) = dest.
Proof. unfold unmarshal_into. destruct (dec f t j); cbn; congruence. Qed.
End Dec.
