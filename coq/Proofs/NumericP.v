(* Exactness of the emitted numeric validator: integer kinds (int64 truncation, %)
   and float64 kinds (math.Mod with the 1e-10 tolerance). *)
From GJS Require Import Base Bounds BoundsP.
From Coq Require Import Lqa.
Open Scope Q_scope.

Definition Qintegral (q : Q) : Prop := exists z : Z, q == inject_Z z.

Lemma value_of_integral q : Qintegral q -> value_of true q == q.
Proof. intros [z Hz]. unfold value_of. rewrite (Qtrunc_z_proper _ _ Hz), Qtrunc_inject. symmetry; exact Hz. Qed.

Lemma accept_lower_proper x b b' ex : b == b' -> accept_lower (Some b, ex) x = accept_lower (Some b', ex) x.
Proof. intros H. unfold accept_lower, Qltb. destruct ex; rewrite H; reflexivity. Qed.
Lemma accept_upper_proper x b b' ex : b == b' -> accept_upper (Some b, ex) x = accept_upper (Some b', ex) x.
Proof. intros H. unfold accept_upper, Qltb. destruct ex; rewrite H; reflexivity. Qed.

Definition opt_integral (o : option Q) : Prop := forall q, o = Some q -> Qintegral q.
Definition exb_integral (o : option exb) : Prop := forall q, o = Some (ExNum q) -> Qintegral q.
Definition bounds_integral (b : bounds) : Prop :=
  opt_integral (b_min b) /\ opt_integral (b_max b) /\ exb_integral (b_exmin b) /\ exb_integral (b_exmax b).

Lemma trunc_opt_false r : trunc_opt false r = r.
Proof. destruct r as [[q|] ex]; reflexivity. Qed.

(* int64() of the constants moves nothing when the stated constants are integers: whichever
   comparison normalised the side, the constant it returns is one of them *)
Lemma trunc_opt_integral (acc : option Q * bool -> Q -> bool) t m e x :
  (forall b b' ex, b == b' -> acc (Some b, ex) x = acc (Some b', ex) x) ->
  opt_integral m -> exb_integral e ->
  acc (trunc_opt true (norm_side t m e)) x = acc (norm_side t m e) x.
Proof.
  intros Hacc Hm He. destruct (norm_side t m e) as [[b|] ex] eqn:E; [|reflexivity].
  apply Hacc, value_of_integral.
  destruct (norm_side_stated _ _ _ _ _ E) as [H|H]; [apply Hm | apply He]; exact H.
Qed.

Lemma accept_numeric_bounds rnd mult b x : (rnd = true -> bounds_integral b) ->
  accept_numeric rnd mult b x = accept_multiple rnd mult x && spec_bounds b x.
Proof.
  intros Hb. unfold accept_numeric. rewrite <- andb_assoc, <- bounds_exact. f_equal. unfold accept_bounds.
  destruct rnd; [|rewrite !trunc_opt_false; reflexivity].
  destruct (Hb eq_refl) as (Hmn & Hmx & Hemn & Hemx). f_equal.
  - exact (trunc_opt_integral accept_upper _ _ _ x (accept_upper_proper x) Hmx Hemx).
  - exact (trunc_opt_integral accept_lower _ _ _ x (accept_lower_proper x) Hmn Hemn).
Qed.

Lemma inject_Z_nz m : m <> 0%Z -> ~ inject_Z m == 0.
Proof. unfold Qeq; cbn. lia. Qed.

(* the quotient of two integers: Go's truncated remainder is 0 iff it is an integer,
   and int64() of it is Go's truncated quotient *)
Lemma Qis_int_div (x m : Z) : m <> 0%Z ->
  Qis_int (inject_Z x / inject_Z m) = Z.eqb (Z.rem x m) 0.
Proof.
  intros Hm. pose proof (inject_Z_nz m Hm) as Hmq.
  apply eq_true_iff_eq. rewrite Qis_int_iff, Z.eqb_eq, Z.rem_divide by exact Hm.
  split; intros [k Hk]; exists k.
  - apply inject_Z_injective. rewrite inject_Z_mult, <- Hk. field. exact Hmq.
  - rewrite Hk, inject_Z_mult. field. exact Hmq.
Qed.

Lemma Qtrunc_div (x m : Z) : m <> 0%Z -> Qtrunc_z (inject_Z x / inject_Z m) = Z.quot x m.
Proof.
  intros Hm. unfold Qtrunc_z. destruct m as [|p|p]; [contradiction| |]; cbn.
  - rewrite Z.mul_1_r. reflexivity.
  - rewrite <- (Z.quot_opp_opp x (Z.neg p)) by exact Hm. cbn [Z.opp]. f_equal. lia.
Qed.

Lemma multiple_int_exact (mult : option Z) (x : Z) :
  (forall m, mult = Some m -> m <> 0%Z) ->
  accept_multiple true (option_map inject_Z mult) (inject_Z x) = spec_multiple (option_map inject_Z mult) (inject_Z x).
Proof.
  intros Hnz. destruct mult as [m|]; [|reflexivity]. cbn [option_map accept_multiple spec_multiple].
  rewrite !Qtrunc_inject, Qeq_bool_inject_0.
  specialize (Hnz m eq_refl). destruct (Z.eqb_spec m 0); [contradiction|].
  symmetry. rewrite (Qis_int_proper _ _ (Qred_correct _)). apply Qis_int_div. exact Hnz.
Qed.

(* the validator emitted for integer kinds (int64() of the constants, `%`) *)
Theorem numeric_int_exact (mult : option Z) (b : bounds) (x : Z) :
  bounds_integral b -> (forall m, mult = Some m -> m <> 0%Z) ->
  accept_numeric true (option_map inject_Z mult) b (inject_Z x)
  = spec_numeric (option_map inject_Z mult) b (inject_Z x).
Proof.
  intros Hb Hnz. rewrite accept_numeric_bounds by (intros _; exact Hb).
  rewrite multiple_int_exact by exact Hnz. reflexivity.
Qed.

Lemma Qabs'_le r t : Qle_bool (Qabs' r) t = true <-> - t <= r <= t.
Proof. unfold Qabs'. destruct (Qle_bool_spec 0 r); rewrite Qle_bool_iff; lra. Qed.

Lemma Qabs'_granule (k : Z) (g r : Q) : tol < g -> r == inject_Z k * g -> Qle_bool (Qabs' r) tol = Z.eqb k 0.
Proof.
  intros Hg Hr. unfold tol in Hg. apply eq_true_iff_eq. rewrite Qabs'_le, Z.eqb_eq, Hr. unfold tol. split.
  - intros H. assert (H1 : inject_Z (-1) < inject_Z k < inject_Z 1) by (change (-1 < inject_Z k < 1); nra).
    rewrite <- !Zlt_Qlt in H1. lia.
  - intros ->. change (inject_Z 0) with 0. lra.
Qed.

(* float64 kinds: math.Mod with the 1e-10 tolerance is exact whenever value and divisor are integer
   multiples of a common granule larger than the tolerance (decimals with at most 9 places, dyadics
   down to 2^-33) *)
Theorem multiple_float_exact (a b : Z) (g : Q) :
  tol < g -> b <> 0%Z ->
  accept_multiple false (Some (inject_Z b * g)) (inject_Z a * g)
  = spec_multiple (Some (inject_Z b * g)) (inject_Z a * g).
Proof.
  intros Hg Hb. pose proof (inject_Z_nz b Hb) as Hbq. assert (Hg0 : 0 < g) by (unfold tol in Hg; lra).
  assert (Hq : inject_Z a * g / (inject_Z b * g) == inject_Z a / inject_Z b) by (field; split; [exact Hbq|lra]).
  cbn [accept_multiple spec_multiple]. unfold Qmod_trunc.
  rewrite (Qtrunc_z_proper _ _ Hq), Qtrunc_div by exact Hb.
  rewrite (Qis_int_proper _ _ (Qred_correct _)), (Qis_int_proper _ _ Hq), Qis_int_div by exact Hb.
  destruct (Qeq_bool_spec (inject_Z b * g) 0) as [E|_].
  { destruct Hbq. nra. }
  (* x - m * trunc(x/m) = (a rem b) * g *)
  apply (Qabs'_granule _ g); [exact Hg|].
  rewrite (Z.quot_rem' a b) at 1. rewrite inject_Z_plus, inject_Z_mult. ring.
Qed.

Theorem numeric_float_exact (a : Z) (mult : option Z) (g : Q) (b : bounds) :
  tol < g -> (forall m, mult = Some m -> m <> 0%Z) ->
  accept_numeric false (option_map (fun m => inject_Z m * g) mult) b (inject_Z a * g)
  = spec_numeric (option_map (fun m => inject_Z m * g) mult) b (inject_Z a * g).
Proof.
  intros Hg Hnz. rewrite accept_numeric_bounds by discriminate. unfold spec_numeric. f_equal.
  destruct mult as [m|]; [|reflexivity]. apply multiple_float_exact; auto.
Qed.

(* float kinds without multipleOf: exact for every rational bound and value, no granule needed *)
Lemma num_exact b x : accept_numeric false None b x = spec_numeric None b x.
Proof. apply accept_numeric_bounds. discriminate. Qed.

(* without the guards the statements are false: outside the granule the tolerance accepts
   non-multiples (1e-11 "is a multiple of 1") *)
Lemma multiple_float_refuted_tolerance :
  exists m x, accept_multiple false (Some m) x = true /\ spec_multiple (Some m) x = false.
Proof. exists 1, (1 # 100000000000). vm_compute. split; reflexivity. Qed.

(* and truncating a fractional bound on an integer kind moves it (minimum 1.5 admits 1) *)
Lemma numeric_int_refuted_fractional :
  exists b x, accept_numeric true None b (inject_Z x) = true /\ spec_numeric None b (inject_Z x) = false.
Proof.
  exists (mkBounds (Some (3 # 2)) None None None), 1%Z. vm_compute. split; reflexivity.
Qed.
