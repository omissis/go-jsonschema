(* Defaults and checks in one method (C09 + C02).  For a validator list in which the default of a field comes before the checks of that
   field (the order of emission: VDefault f first, then the checks on f), the validators that run after the typed decode succeed iff every
   check passes on the DEFAULTED value, and the result is the decoded struct with the defaults in place ([final]).  The method of defaults
   alone (C09_method_defaults, over the definitions of DefaultsP.v) is the case without checks: [expected] reads off, field by field, what
   [final] computes.  Last, the generator: every object method it emits is ordered and well-formed in this sense. *)
From GJS Require Import Base Schema GoType Gen Exec ExecP GenP MethodP DefaultsP.

Section DC.
Variable dvf : gty -> json -> option gval.
Notation check_only := MethodP.check_only.

(* the field a validator reads or writes: [ExecP.v_fname] under the name [wf_v] and [ordered], and through them the C09 statements, use (the two are convertible) *)
Definition vfield (v : validator) : str :=
  match v with
  | VNullType f _ _ | VDefault f _ _ _ | VArray f _ _ _ _ | VString f _ _ _ _ _ | VNumeric f _ _ _ _ _ => f
  | _ => []
  end.

Definition dstep (raw : raw_t) (flds : list (str * gval)) (v : validator) : list (str * gval) :=
  match v with
  | VDefault f j ty dv => if raw_missing raw j then match dvf ty dv with Some d => set_field f d flds | None => flds end else flds
  | _ => flds
  end.
Definition final (raw : raw_t) (vs : list validator) (flds : list (str * gval)) : list (str * gval) := fold_left (dstep raw) vs flds.

Lemma final_cons raw v r flds : final raw (v :: r) flds = final raw r (dstep raw flds v).
Proof. reflexivity. Qed.

Lemma check_reads_own_field raw v flds1 flds2 : check_only v = true -> vfield v <> [] ->
  lookup (vfield v) flds1 = lookup (vfield v) flds2 ->
  is_ok (after_step dvf raw (GSt flds1) v) = is_ok (after_step dvf raw (GSt flds2) v).
Proof.
  intros Hc Hn Hl. rewrite (check_frame dvf raw raw (GSt flds1) (GSt flds2) v (check_only_has_error v Hc)); [apply is_ok_map|].
  change (v_fname v) with (vfield v). destruct (vfield v); [contradiction|exact Hl].
Qed.

Lemma final_keeps raw f : forall vs flds, (forall v, In v vs -> dname v <> f) -> lookup f (final raw vs flds) = lookup f flds.
Proof.
  induction vs as [|v r IH]; intros flds H; [reflexivity|]. rewrite final_cons.
  rewrite IH by (intros w Hw; apply H; right; exact Hw).
  destruct v; cbn [dstep]; try reflexivity.
  destruct (raw_missing raw jname); [|reflexivity]. destruct (dvf ty dv); [|reflexivity].
  apply lookup_set_field_other. intros ->. apply (H (VDefault fname jname ty dv) (or_introl eq_refl)). reflexivity.
Qed.

(* well-formed lists: defaults over existing named fields with literals that fit, and checks; the default of a field never after a check of it.
   The left disjunct is [DefaultsP.dflt_wf] with the field given by its key ([defaults_only]); [WfP.v_ok] asks, at a VDefault, for the
   same with [dvf] the model's [default_val] and, in addition, for a literal of the shape of the field's type *)
Definition wf_v (keys : list str) (v : validator) : Prop :=
  (exists f j ty dv d, v = VDefault f j ty dv /\ f <> [] /\ In f keys /\ dvf ty dv = Some d) \/
  (check_only v = true /\ (vfield v <> [] \/ exists k, v = VRequired k)).
Inductive ordered : list validator -> Prop :=
| o_nil : ordered []
| o_default f j ty dv r : ordered r -> ordered (VDefault f j ty dv :: r)
| o_check v r : check_only v = true -> (forall w, In w r -> dname w <> vfield v \/ vfield v = []) -> ordered r -> ordered (v :: r).

Lemma dstep_keys raw flds v : map fst (dstep raw flds v) = map fst flds.
Proof. destruct v; cbn [dstep]; try reflexivity. destruct (raw_missing raw jname); [|reflexivity]. destruct (dvf ty dv); [apply set_field_keys|reflexivity]. Qed.

Lemma run_after_stuck raw vs (o : outcome gval) : is_ok o = false -> is_ok (fold_left (fun acc v => obind acc (fun st => after_step dvf raw st v)) vs o) = false.
Proof. apply ofold_stuck. Qed.

Definition passes (raw : raw_t) (fin : list (str * gval)) (v : validator) : bool := negb (check_only v) || is_ok (after_step dvf raw (GSt fin) v).

Lemma default_step raw flds f j ty dv d : raw <> None -> f <> [] -> In f (map fst flds) -> dvf ty dv = Some d ->
  after_step dvf raw (GSt flds) (VDefault f j ty dv) = Ok (GSt (dstep raw flds (VDefault f j ty dv))).
Proof.
  intros Hraw Hf Hin Hd. rewrite after_step_default by exact Hraw. cbn [dstep]. rewrite Hd.
  destruct (raw_missing raw j); [|reflexivity]. destruct (lookup_in_keys f flds Hin) as [x Hx].
  destruct f; [contradiction|]. cbn [set_plain]. rewrite Hx. reflexivity.
Qed.

Theorem defaults_then_checks raw : raw <> None -> forall vs flds, Forall (wf_v (map fst flds)) vs -> ordered vs ->
  is_ok (run_after dvf vs raw (GSt flds)) = forallb (passes raw (final raw vs flds)) vs /\
  (is_ok (run_after dvf vs raw (GSt flds)) = true -> run_after dvf vs raw (GSt flds) = Ok (GSt (final raw vs flds))).
Proof.
  intros Hraw. induction vs as [|v r IH]; intros flds Hwf Hord; [split; reflexivity|].
  inversion Hwf as [|v0 r0 Hv Hr]; subst. rewrite run_after_cons, final_cons. cbn [forallb].
  destruct Hv as [(f & j & ty & dv & d & -> & Hf & Hin & Hd)|[Hc Hshape]].
  - rewrite (default_step raw flds f j ty dv d Hraw Hf Hin Hd). cbn [obind].
    inversion Hord as [|f0 j0 ty0 dv0 r0 Hor|v0 r0 Hc0 _ _]; subst; [|discriminate Hc0].
    apply IH; [rewrite dstep_keys; exact Hr|exact Hor].
  - assert (Hd : dstep raw flds v = flds) by (destruct v; try discriminate Hc; reflexivity).
    rewrite Hd. inversion Hord as [|f0 j0 ty0 dv0 r0 Hor|v0 r0 _ Hlater Hor]; subst; [discriminate Hc|].
    (* the defaults still to come leave the field of this check alone *)
    assert (Hsame : is_ok (after_step dvf raw (GSt flds) v) = is_ok (after_step dvf raw (GSt (final raw r flds)) v)).
    { destruct Hshape as [E|[k ->]]; [|reflexivity].
      apply check_reads_own_field; [exact Hc|exact E|]. symmetry. apply final_keeps. intros w Hw. destruct (Hlater w Hw) as [H|H]; [exact H|contradiction]. }
    unfold passes at 1. rewrite Hc. cbn [negb orb]. rewrite <- Hsame.
    destruct (after_step dvf raw (GSt flds) v) as [st'| | |] eqn:E; try (split; [reflexivity|discriminate]).
    rewrite (after_step_same dvf raw (GSt flds) v st' (check_only_has_error v Hc) E). exact (IH flds Hr Hor).
Qed.
End DC.

Section DCMethod.
Variable decf : gty -> json -> outcome gval.
Variable zf : gty -> gval.
Variable dvf : gty -> json -> option gval.

Definition present (kv : list (str * json)) (v : validator) : bool :=
  match v with VRequired k => match lookup k kv with Some _ => true | None => false end | _ => true end.

(* the two ways the development says "every required key is present" *)
Lemma present_required_of kv vs : forallb (present kv) vs = forallb (has_key kv) (required_of vs).
Proof.
  unfold required_of. rewrite forallb_flat_map. apply forallb_ext_in. intros v _.
  destruct v; try reflexivity. cbn [present forallb]. unfold has_key. rewrite andb_true_r. reflexivity.
Qed.

Lemma before_step_present keys kv j v : wf_v dvf keys v -> is_ok (before_step decf (Some (Some kv)) j v) = present kv v.
Proof.
  intros [(f & j0 & ty & dv & d & -> & _)|[Hc _]]; [reflexivity|].
  destruct v; try discriminate Hc; try reflexivity. cbn. destruct (lookup jname kv); reflexivity.
Qed.

Theorem method_defaults_checks fs under vs kv flds :
  find f_addl fs = None -> plain_fields decf zf fs (JObj kv) = Ok (GSt flds) ->
  Forall (wf_v dvf (map fst flds)) vs -> ordered vs ->
  let fin := final dvf (Some (Some kv)) vs flds in
  is_ok (run_method decf zf dvf (Some fs) under vs (JObj kv)) = forallb (present kv) vs && forallb (passes dvf (Some (Some kv)) fin) vs /\
  (is_ok (run_method decf zf dvf (Some fs) under vs (JObj kv)) = true -> run_method decf zf dvf (Some fs) under vs (JObj kv) = Ok (GSt fin)).
Proof.
  intros Ha Hp Hwf Hord fin. rewrite (run_method_decoded decf zf dvf fs under vs kv _ Ha Hp).
  (* a method that does not declare `raw` has no validator that reads it: the map can be taken as declared *)
  assert (Er : obind (run_before decf vs (raw_of vs kv) (JObj kv)) (fun _ => run_after dvf vs (raw_of vs kv) (GSt flds))
             = obind (run_before decf vs (Some (Some kv)) (JObj kv)) (fun _ => run_after dvf vs (Some (Some kv)) (GSt flds))).
  { unfold raw_of. destruct (existsb v_before vs || existsb v_raw_after vs) eqn:Hraw; [reflexivity|].
    apply orb_false_iff in Hraw. destruct Hraw as [Hnb Hna]. rewrite !(run_before_none decf vs _ _ Hnb). cbn [obind].
    apply run_after_raw_irrelevant. intros v Hv. pose proof (existsb_false_In v_raw_after vs v Hna Hv). destruct v; try exact I; discriminate. }
  rewrite Er. clear Er.
  assert (Hb : is_ok (run_before decf vs (Some (Some kv)) (JObj kv)) = forallb (present kv) vs).
  { rewrite run_before_exact. apply forallb_ext_in. intros v Hv. rewrite Forall_forall in Hwf. exact (before_step_present _ kv _ v (Hwf v Hv)). }
  destruct (defaults_then_checks dvf (Some (Some kv)) (fun E => ltac:(discriminate E)) vs flds Hwf Hord) as [H1 H2]. fold fin in H1, H2.
  split; [rewrite is_ok_then, Hb, H1; reflexivity|].
  intros H. destruct (obind_ok_inv _ _ H) as ([] & -> & Hra). exact (H2 Hra).
Qed.
End DCMethod.

Section DefaultsOnly.
Variable decf : gty -> json -> outcome gval.
Variable zf : gty -> gval.
Variable dvf : gty -> json -> option gval.

Lemma dflt_wf_dstep raw flds v w : dflt_wf dvf flds w -> dflt_wf dvf (dstep dvf raw flds v) w.
Proof. intros H. destruct v; try exact H. cbn [dstep]. destruct (raw_missing raw jname), (dvf ty dv); try exact H. apply dflt_wf_set, H. Qed.

Lemma final_expected raw : forall vs flds, Forall (dflt_wf dvf flds) vs -> NoDup (map dname vs) ->
  forall f, lookup f (final dvf raw vs flds) = expected dvf raw flds vs f.
Proof.
  induction vs as [|v r IH]; intros flds Hwf Nd f; [reflexivity|].
  inversion Hwf as [|v0 r0 Hv Hr]; subst. inversion Nd as [|n0 l0 Hnotin Nd']; subst.
  rewrite final_cons.
  rewrite IH by first [exact Nd'|eapply Forall_impl; [|exact Hr]; intros w; apply dflt_wf_dstep].
  destruct Hv as (fn & j & ty & dv & d & -> & Hfn & [x Hx] & Hd). cbn [dname] in Hnotin.
  rewrite expected_cons_default. cbn [dstep]. rewrite Hd. destruct (str_eqb_spec fn f) as [<-|E].
  - (* the field of this default: no later default assigns it *)
    rewrite (expected_no_default dvf raw _ r fn Hnotin).
    destruct (raw_missing raw j); [exact (lookup_set_field_same fn d flds x Hx)|reflexivity].
  - (* another field: this default leaves it alone *)
    apply expected_ext. destruct (raw_missing raw j); [|reflexivity]. apply lookup_set_field_other. congruence.
Qed.

(* a list of defaults is a list of defaults and checks without checks *)
Lemma defaults_only raw kv fin flds vs : Forall (dflt_wf dvf flds) vs ->
  Forall (wf_v dvf (map fst flds)) vs /\ ordered vs /\ forallb (present kv) vs = true /\ forallb (passes dvf raw fin) vs = true.
Proof.
  induction 1 as [|v r (f & j & ty & dv & d & -> & Hf & [x Hx] & Hd) _ (IH1 & IH2 & IH3 & IH4)]; [repeat split; constructor|].
  repeat split; [constructor; [left|exact IH1]|constructor; exact IH2|exact IH3|exact IH4].
  exists f, j, ty, dv, d. repeat split; try assumption. exact (List.in_map fst _ _ (lookup_In _ _ _ Hx)).
Qed.

Theorem defaults_method fs under vs kv flds :
  find f_addl fs = None -> plain_fields decf zf fs (JObj kv) = Ok (GSt flds) ->
  Forall (dflt_wf dvf flds) vs -> NoDup (map dname vs) ->
  exists flds', run_method decf zf dvf (Some fs) under vs (JObj kv) = Ok (GSt flds') /\
                forall f, lookup f flds' = expected dvf (Some (Some kv)) flds vs f.
Proof.
  intros Ha Hp Hwf Nd. exists (final dvf (Some (Some kv)) vs flds). split; [|intros f; apply final_expected; assumption].
  destruct (defaults_only (Some (Some kv)) kv (final dvf (Some (Some kv)) vs flds) flds vs Hwf) as (H1 & H2 & H3 & H4).
  destruct (method_defaults_checks decf zf dvf fs under vs kv flds Ha Hp H1 H2) as [Hok Hval].
  apply Hval. rewrite Hok, H3, H4. reflexivity.
Qed.
End DefaultsOnly.

Theorem defaulted_object_method idf cf defs f self sub s scope t b :
  plain_object s -> s_addl s = None -> (forall k p, In (k, p) (s_props s) -> dstr_leaf p) ->
  NoDup (map fst (prop_names idf (s_props s))) -> (forall fname kp, In (fname, kp) (prop_names idf (s_props s)) -> fname <> []) ->
  Gen.gen idf cf defs (S (S f)) MType self sub s scope = Done (t, b) ->
  exists fs vs, t = TStruct [] fs (Some vs) /\
    forall decf zf dvf under kv flds,
      (forall s0, dvf TString (JStr s0) = Some (GS s0)) ->
      plain_fields decf zf fs (JObj kv) = Ok (GSt flds) ->
      exists flds', run_method decf zf dvf (Some fs) under vs (JObj kv) = Ok (GSt flds') /\
                    forall fn, lookup fn flds' = expected dvf (Some (Some kv)) flds vs fn.
Proof.
  intros Hp Ha Hd Nn Hne Hg.
  destruct (object_method_defaults_only idf cf defs f self sub s scope t b Hp Ha Hd Hg) as (fs & vs & -> & Hfa & Hdn & Hfn & Hall).
  exists fs, vs. split; [reflexivity|]. intros decf zf dvf under kv flds Hdv Hpf.
  apply (defaults_method decf zf dvf fs under vs kv flds Hfa Hpf).
  - pose proof (plain_fields_names decf zf fs kv flds Hpf) as Hk.
    apply Forall_forall. intros v Hv. rewrite Forall_forall in Hall. destruct (Hall v Hv) as (fn & j & s0 & ->).
    pose proof (List.in_map dname vs _ Hv) as Hin. cbn [dname] in Hin. rewrite Hdn in Hin.
    exists fn, j, TString, (JStr s0), (GS s0). repeat split; [|apply lookup_in_keys; rewrite Hk; exact Hin|apply Hdv].
    rewrite Hfn in Hin. apply in_map_iff in Hin. destruct Hin as ([fname kp] & <- & Hin). exact (Hne fname kp Hin).
  - rewrite Hdn, Hfn. exact Nn.
Qed.

(* non-vacuity: fields a (required, minLength 2) and b (default "y", maxLength 3); documents {"a": "zz"} (accepted, b = "y"), {"a": "z"}, {} (rejected),
   {"a": "zz", "b": "long!"} (rejected: the present value is checked, not the default) *)
Example defaults_checks_inhabited :
  let fs := [mkField [65]%N [97]%N false TString None false; mkField [66]%N [98]%N true TString (Some (JStr [121]%N)) false] in
  let vs := [VRequired [97]%N; VString [65]%N [97]%N false 2 0 None; VDefault [66]%N [98]%N TString (JStr [121]%N); VString [66]%N [98]%N false 0 3 None] in
  let run kv := run_method (dec (fun _ _ => true) [] 3) zero (default_val [] 3) (Some fs) TString vs (JObj kv) in
  ordered vs /\
  run [([97]%N, JStr [122; 122]%N)] = Ok (GSt [([65]%N, GS [122; 122]%N); ([66]%N, GS [121]%N)]) /\
  is_ok (run [([97]%N, JStr [122]%N)]) = false /\ is_ok (run []) = false /\
  is_ok (run [([97]%N, JStr [122; 122]%N); ([98]%N, JStr [108; 111; 110; 103; 33]%N)]) = false.
Proof.
  cbn zeta. split.
  - apply o_check; [reflexivity|intros w Hw; right; reflexivity|].
    apply o_check; [reflexivity| |].
    + intros w [<-|[<-|[]]]; left; discriminate.
    + apply o_default. apply o_check; [reflexivity|intros w []|apply o_nil].
  - vm_compute. repeat split; reflexivity.
Qed.

Definition block (i : finfo) : Prop :=
  let fn := f_name (fst (fst i)) in
  exists cs, Forall (own fn) cs /\ (snd i = cs \/ exists j ty dv, snd i = VDefault fn j ty dv :: cs).

Lemma make_field_block defs c self fname k p ty bp : block (make_field defs c self fname k p ty bp).
Proof.
  unfold block. destruct (c_default (s_con p)) as [dv|] eqn:E.
  - rewrite (make_field_default defs _ _ _ _ _ _ _ _ E). cbn [fst snd f_name]. eexists. split; [apply field_validators_own|]. right. eexists. eexists. eexists. reflexivity.
  - rewrite (make_field_no_default defs _ _ _ _ _ _ _ E). cbn [fst snd f_name]. eexists. split; [apply field_validators_own|]. left. reflexivity.
Qed.

Lemma dname_check w : MethodP.check_only w = true -> dname w = [].
Proof. destruct w; cbn [MethodP.check_only dname]; try reflexivity; discriminate. Qed.

Lemma dname_other w f : v_fname w <> f -> dname w <> f \/ f = [].
Proof. intros H. destruct f; [right; reflexivity|left]. destruct w; cbn [dname v_fname] in *; try discriminate; exact H. Qed.

Lemma ordered_checks cs : forallb MethodP.check_only cs = true -> ordered cs.
Proof.
  induction cs as [|v r IH]; intros H; [apply o_nil|]. cbn [forallb] in H. apply andb_true_iff in H. destruct H as [Hv Hr].
  apply o_check; [exact Hv| |exact (IH Hr)]. intros w Hw. rewrite forallb_forall in Hr. rewrite (dname_check w (Hr w Hw)).
  destruct (vfield v); [right; reflexivity|left; discriminate].
Qed.

Lemma ordered_app a b : ordered a -> ordered b ->
  (forall v w, In v a -> In w b -> dname w <> vfield v \/ vfield v = []) -> ordered (a ++ b).
Proof.
  induction 1 as [|f j ty dv r _ IH|v r Hc Hl _ IH]; intros Hb Hab; [exact Hb| |]; cbn [app].
  - apply o_default, IH; [exact Hb|]. intros v w Hv. apply Hab. right; exact Hv.
  - apply o_check; [exact Hc| |apply IH; [exact Hb|intros v' w Hv'; apply Hab; right; exact Hv']].
    intros w Hw. apply in_app_or in Hw. destruct Hw as [Hw|Hw]; [exact (Hl w Hw)|exact (Hab v w (or_introl eq_refl) Hw)].
Qed.

Lemma block_fname i w : block i -> In w (snd i) -> v_fname w = f_name (fst (fst i)).
Proof.
  intros (cs & Hcs & Hshape) Hw. rewrite Forall_forall in Hcs.
  destruct Hshape as [E|(j & ty & dv & E)]; rewrite E in Hw; [exact (proj1 (proj2 (Hcs w Hw)))|].
  destruct Hw as [<-|Hw]; [reflexivity|exact (proj1 (proj2 (Hcs w Hw)))].
Qed.

Lemma block_ordered i : block i -> ordered (snd i).
Proof.
  intros (cs & Hcs & Hshape). pose proof (ordered_checks cs (own_check_only _ cs Hcs)) as Ho.
  destruct Hshape as [->|(j & ty & dv & ->)]; [exact Ho|apply o_default, Ho].
Qed.

Lemma ordered_blocks infos : Forall block infos -> NoDup (map (fun i : finfo => f_name (fst (fst i))) infos) ->
  ordered (flat_map (fun i : finfo => snd i) infos).
Proof.
  induction 1 as [|i r Hi Hr IH]; intros Nd; [apply o_nil|]. inversion Nd as [|? ? Hnot Nd']; subst. cbn [flat_map].
  apply ordered_app; [exact (block_ordered i Hi)|exact (IH Nd')|]. intros v w Hv Hw. apply dname_other.
  change (vfield v) with (v_fname v). rewrite (block_fname i v Hi Hv). apply in_flat_map in Hw. destruct Hw as (i' & Hi' & Hw).
  rewrite Forall_forall in Hr. rewrite (block_fname i' w (Hr i' Hi') Hw). intros E. apply Hnot. rewrite <- E.
  exact (List.in_map (fun i : finfo => f_name (fst (fst i))) r i' Hi').
Qed.

Lemma block_wf dvf keys i : block i -> f_name (fst (fst i)) <> [] -> In (f_name (fst (fst i))) keys ->
  (forall fn j ty dv, In (VDefault fn j ty dv) (snd i) -> exists d, dvf ty dv = Some d) -> Forall (wf_v dvf keys) (snd i).
Proof.
  intros (cs & Hcs & Hshape) Hnn Hin Hfit.
  assert (Hchecks : Forall (wf_v dvf keys) cs).
  { eapply Forall_impl; [|exact Hcs]. intros w (Hc & Hf & _). right. split; [exact Hc|]. left. change (vfield w) with (v_fname w). rewrite Hf. exact Hnn. }
  destruct Hshape as [->|(j & ty & dv & E)]; [exact Hchecks|]. rewrite E in *. constructor; [|exact Hchecks]. left.
  destruct (Hfit _ j ty dv (or_introl eq_refl)) as [d Hd]. exists (f_name (fst (fst i))), j, ty, dv, d. repeat split; assumption.
Qed.

Section GenOrder.
Variable idf : str -> str.
Variable cf : cfg.
Variable defs : list (str * schema).

(* the generator emits every object's validators in that order: for every object schema `gen` handles (any property types) the
   required checks come first, then per field its default (if any) followed by its checks *)
Theorem object_method_ordered f self sub s scope fs vs b :
  plain_object s -> s_addl s = None -> NoDup (map fst (prop_names idf (s_props s))) ->
  Gen.gen idf cf defs (S f) MType self sub s scope = Done (TStruct [] fs (Some vs), b) -> ordered vs.
Proof.
  intros Hp Ha Nn Hg.
  destruct (gen_object_infos idf cf defs block f self sub s scope _ b Hp Ha Hg) as (infos & Hb & Hnames & _ & E).
  { intros. apply make_field_block. }
  inversion E; subst. destruct (required_checks infos) as [ks ->]. rewrite <- Hnames in Nn.
  apply ordered_app; [apply ordered_checks; rewrite forallb_map; apply forallb_true|exact (ordered_blocks infos Hb Nn)|].
  intros v w Hv _. apply in_map_iff in Hv. destruct Hv as (k & <- & _). right. reflexivity.
Qed.

(* so the statement about defaults and checks applies to every generated object method, given that the field names are non-empty
   and the default literals fit their fields (the residue of C19_generated_wf) *)
Theorem object_method_wf dvf f self sub s scope fs vs b :
  plain_object s -> s_addl s = None -> (forall fname kp, In (fname, kp) (prop_names idf (s_props s)) -> fname <> []) ->
  (forall fn j ty dv, In (VDefault fn j ty dv) vs -> exists d, dvf ty dv = Some d) ->
  Gen.gen idf cf defs (S f) MType self sub s scope = Done (TStruct [] fs (Some vs), b) ->
  Forall (wf_v dvf (map f_name fs)) vs /\ find f_addl fs = None.
Proof.
  intros Hp Ha Hne Hfit Hg.
  destruct (gen_object_infos idf cf defs block f self sub s scope _ b Hp Ha Hg) as (infos & Hi & Hnames & Hfa & E).
  { intros. apply make_field_block. }
  inversion E; subst. clear E. destruct (required_checks infos) as [ks Hks]. rewrite Hks in *. split; [|exact Hfa].
  apply Forall_app. split.
  - apply Forall_forall. intros v Hv. apply in_map_iff in Hv. destruct Hv as (k & <- & _). right. split; [reflexivity|]. right. exists k. reflexivity.
  - apply Forall_flat_map, Forall_forall. intros i Hin. rewrite Forall_forall in Hi.
    pose proof (List.in_map (fun i : finfo => f_name (fst (fst i))) infos i Hin) as Hn. apply (block_wf dvf _ i (Hi i Hin)).
    + rewrite Hnames in Hn. apply in_map_iff in Hn. destruct Hn as ([fname kp] & <- & Hn). exact (Hne fname kp Hn).
    + rewrite map_map. exact Hn.
    + intros fn j ty dv Hd. apply (Hfit fn j ty dv), in_or_app. right. apply in_flat_map. exists i. split; [exact Hin|exact Hd].
Qed.

Theorem generated_object_defaults_checks decf zf dvf f self sub s scope fs vs b under kv flds :
  plain_object s -> s_addl s = None -> NoDup (map fst (prop_names idf (s_props s))) ->
  (forall fname kp, In (fname, kp) (prop_names idf (s_props s)) -> fname <> []) ->
  (forall fn j ty dv, In (VDefault fn j ty dv) vs -> exists d, dvf ty dv = Some d) ->
  Gen.gen idf cf defs (S f) MType self sub s scope = Done (TStruct [] fs (Some vs), b) ->
  plain_fields decf zf fs (JObj kv) = Ok (GSt flds) ->
  let fin := final dvf (Some (Some kv)) vs flds in
  is_ok (run_method decf zf dvf (Some fs) under vs (JObj kv)) = forallb (present kv) vs && forallb (passes dvf (Some (Some kv)) fin) vs /\
  (is_ok (run_method decf zf dvf (Some fs) under vs (JObj kv)) = true -> run_method decf zf dvf (Some fs) under vs (JObj kv) = Ok (GSt fin)).
Proof.
  intros Hp Ha Nn Hne Hfit Hg Hpf.
  destruct (object_method_wf dvf f self sub s scope fs vs b Hp Ha Hne Hfit Hg) as [Hwf Hfa].
  apply (method_defaults_checks decf zf dvf fs under vs kv flds Hfa Hpf); [|exact (object_method_ordered f self sub s scope fs vs b Hp Ha Nn Hg)].
  rewrite (plain_fields_names decf zf fs kv flds Hpf). exact Hwf.
Qed.
End GenOrder.

(* non-vacuity of [generated_object_defaults_checks]: {a: string minLength 2 (required), b: string maxLength 3 default "y"} *)
Definition ex_dc_a : schema := Sch (mkC [SString] None None [] 0 0 2 0 None None (mkBounds None None None None) None None) [] None false None [] [].
Definition ex_dc_b : schema := Sch (mkC [SString] None None [] 0 0 0 3 None None (mkBounds None None None None) (Some (JStr [121]%N)) None) [] None false None [] [].
Definition ex_dc_obj : schema :=
  Sch (mkC [SObject] None None [[97]%N] 0 0 0 0 None None (mkBounds None None None None) None None) [([97]%N, ex_dc_a); ([98]%N, ex_dc_b)] None false None [] [].
Example generated_dc_inhabited :
  plain_object ex_dc_obj /\ s_addl ex_dc_obj = None /\ NoDup (map fst (prop_names (fun s => s) (s_props ex_dc_obj))) /\
  (forall fname kp, In (fname, kp) (prop_names (fun s => s) (s_props ex_dc_obj)) -> fname <> []) /\
  exists fs vs b, Gen.gen (fun s => s) (mkCfg false false) [] 3 MType None false ex_dc_obj [82]%N = Done (TStruct [] fs (Some vs), b) /\
    (forall fn j ty dv, In (VDefault fn j ty dv) vs -> exists d, default_val [] 3 ty dv = Some d) /\
    existsb v_before vs || existsb v_raw_after vs = true /\
    vs = [VRequired [97]%N; VString [97]%N [97]%N false 2 0 None; VDefault [98]%N [98]%N TString (JStr [121]%N); VString [98]%N [98]%N false 0 3 None].
Proof.
  split; [repeat split; try reflexivity; discriminate|]. split; [reflexivity|].
  split; [vm_compute; repeat constructor; cbn; intuition discriminate|]. split.
  - intros fname kp H. vm_compute in H. destruct H as [H|[H|[]]]; inversion H; subst; discriminate.
  - eexists. eexists. eexists. split; [vm_compute; reflexivity|]. split; [|split; reflexivity].
    intros fn j ty dv [H|[H|[H|[H|[]]]]]; inversion H; subst. eexists. vm_compute. reflexivity.
Qed.
