(* C13: a keyword written in either of its spellings decodes (Model/Decode.v) to the same thing. *)
From GJS Require Import Base Decode.

Theorem type_string_or_list t : t <> [] -> decode_type_list (JStr t) = decode_type_list (JArr [JStr t]).
Proof. intros H. destruct t; [contradiction|reflexivity]. Qed.

Theorem true_is_empty_object : decode_bool_schema (JBool true) = decode_bool_schema (JObj []).
Proof. reflexivity. Qed.

Lemma present_hd k d (o : obj) : d <> JNull -> present k ((k, d) :: o) = Some d.
Proof. intros H. unfold present. rewrite lookup_same. destruct d; try reflexivity; contradiction. Qed.
Lemma present_tl k k' d (o : obj) : k <> k' -> present k ((k', d) :: o) = present k o.
Proof. intros H. unfold present. rewrite lookup_other by exact H. reflexivity. Qed.

Lemma present_none k (o : obj) : lookup k o = None -> present k o = None.
Proof. intros H. unfold present. rewrite H. reflexivity. Qed.

Theorem defs_spellings (o : obj) d : lookup k_defs o = None -> d <> JNull ->
  decode_defs ((k_defs, d) :: o) = decode_defs ((k_definitions, d) :: o).
Proof.
  intros H1 Hd. unfold decode_defs. rewrite !present_hd by exact Hd. rewrite present_tl by discriminate.
  rewrite (present_none _ _ H1). reflexivity.
Qed.
Theorem dependents_spellings (o : obj) d : lookup k_dependent_schemas o = None -> d <> JNull ->
  decode_dependents ((k_dependent_schemas, d) :: o) = decode_dependents ((k_dependencies, d) :: o).
Proof.
  intros H1 Hd. unfold decode_dependents. rewrite !present_hd by exact Hd. rewrite present_tl by discriminate.
  rewrite (present_none _ _ H1). reflexivity.
Qed.

Theorem defs_precedence (o : obj) d d' : d <> JNull -> decode_defs ((k_defs, d) :: (k_definitions, d') :: o) = Some d.
Proof. intros H. unfold decode_defs. rewrite present_hd by exact H. reflexivity. Qed.

Theorem id_spellings (o : obj) s : lookup k_id o = None -> s <> [] ->
  decode_id ((k_id, JStr s) :: o) = decode_id ((k_legacy_id, JStr s) :: o).
Proof.
  intros H1 Hs. unfold decode_id, str_field.
  rewrite (lookup_other k_id k_legacy_id) by discriminate.
  rewrite !lookup_same, H1. destruct s; [contradiction|reflexivity].
Qed.

Lemma split_hash_app file rest : Forall (fun c => c <> 35%N) file -> split_hash (file ++ 35%N :: rest) = (file, Some rest).
Proof.
  induction 1 as [|c f Hc _ IH]; cbn; [reflexivity|].
  destruct (N.eqb_spec c 35); [contradiction|]. rewrite IH. reflexivity.
Qed.

Lemma is_prefix_app a b : is_prefix_s a (a ++ b) = true.
Proof. induction a as [|x a IH]; cbn; [reflexivity|]. rewrite N.eqb_refl. exact IH. Qed.

(* the prefix is tested after lowering; the name is what follows it, in its own case *)
Lemma extract_ref_names_prefix file pre x : Forall (fun c => c <> 35%N) file ->
  map ascii_lower pre = p_defs \/ map ascii_lower pre = p_definitions ->
  extract_ref_names (file ++ 35%N :: pre ++ x) = Some (x, file).
Proof.
  intros Hf Hc. unfold extract_ref_names. rewrite split_hash_app by exact Hf. rewrite map_app.
  assert (Hs : skipn (length (map ascii_lower pre)) (pre ++ x) = x).
  { rewrite map_length, skipn_app, Nat.sub_diag, skipn_all. reflexivity. }
  destruct Hc as [Hp|Hp]; rewrite Hp in *.
  - rewrite is_prefix_app, Hs. reflexivity.
  - (* "/$defs/" and "/definitions/" part at the second character *)
    change (is_prefix_s p_defs (p_definitions ++ _)) with false. rewrite is_prefix_app, Hs. reflexivity.
Qed.

Theorem ref_prefix_spellings file x : Forall (fun c => c <> 35%N) file ->
  extract_ref_names (file ++ 35%N :: p_defs ++ x) = Some (x, file) /\
  extract_ref_names (file ++ 35%N :: p_definitions ++ x) = Some (x, file).
Proof. intros Hf. split; apply extract_ref_names_prefix; auto. Qed.

(* "#/props/x": a pointer that is neither spelling is an error *)
Example ref_other_pointer_fails : extract_ref_names [35; 47; 112; 114; 111; 112; 115; 47; 120]%N = None.
Proof. reflexivity. Qed.
