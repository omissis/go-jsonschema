(* NormalizeBounds keeps, on each side, the tightest of the stated constants, and the comparison emitted
   for it accepts exactly what the keywords of that side admit.  Both sides are one argument over a boolean
   total preorder. *)
From GJS Require Import Base Bounds.
Open Scope Q_scope.

Lemma norm_side_stated t m e b ex : norm_side t m e = (Some b, ex) -> m = Some b \/ e = Some (ExNum b).
Proof.
  unfold norm_side. destruct m as [mm|], e as [[x|v]|]; cbn; try destruct (t v mm); intros H; inversion H; auto.
Qed.

Lemma norm_side_none t m e : fst (norm_side t m e) = None <-> (m = None /\ forall v, e <> Some (ExNum v)).
Proof.
  unfold norm_side. split.
  - intros H. destruct m as [mm|].
    + exfalso. destruct e as [[x|v]|]; cbn in H; try destruct (t v mm); discriminate H.
    + split; [reflexivity|]. intros v ->. discriminate H.
  - intros [-> He]. destruct e as [[x|v]|]; [reflexivity | destruct (He v eq_refl) | reflexivity].
Qed.

Record tpo (le : Q -> Q -> bool) : Prop := {
  tpo_total : forall a b, le a b = false -> le b a = true;
  tpo_trans : forall a b c, le a b = true -> le b c = true -> le a c = true }.

Lemma tpo_Qle : tpo Qle_bool.
Proof.
  split.
  - intros a b H. apply Qle_bool_iff, Qlt_le_weak, Qnot_le_lt. rewrite <- Qle_bool_iff, H. discriminate.
  - intros a b c. rewrite !Qle_bool_iff. apply Qle_trans.
Qed.

Lemma tpo_refl le : tpo le -> forall a, le a a = true.
Proof. intros O a. pose proof (tpo_total _ O a a) as H. destruct (le a a); auto. Qed.

Lemma tpo_converse le : tpo le -> tpo (fun a b => le b a).
Proof. intros [T L]. split; [intros a b; apply T | intros a b c H1 H2; exact (L c b a H2 H1)]. Qed.

(* One side of NormalizeBounds over such an order, [le a b] reading "b is at least as tight
   as a".  The lower side is [Qle_bool], the upper side its converse: at these two instances
   [side_accept] and [side_spec] are accept_lower/upper and spec_lower/upper by conversion, which
   is why [side_accept] keeps the double negation that [negb (Qltb x b)] unfolds to. *)
Section Side.
  Variable le : Q -> Q -> bool.
  Hypothesis O : tpo le.

  Definition side_accept (r : option Q * bool) (x : Q) : bool :=
    match r with
    | (None, _) => true
    | (Some b, true) => negb (le x b)
    | (Some b, false) => negb (negb (le b x))
    end.
  Definition side_spec (m : option Q) (e : option exb) (x : Q) : bool :=
    match m with
    | None => true
    | Some mm => match e with Some (ExBool true) => negb (le x mm) | _ => le mm x end
    end &&
    match e with Some (ExNum v) => negb (le x v) | _ => true end.
  Let norm := norm_side (fun v m => le m v).

  Lemma side_exact m e x : side_accept (norm m e) x = side_spec m e x.
  Proof.
    unfold norm, norm_side, side_spec.
    destruct m as [mm|], e as [[[|]|v]|]; cbn; rewrite ?negb_involutive, ?andb_true_r; try reflexivity.
    destruct (le mm v) eqn:Hv; cbn; rewrite ?negb_involutive.
    - (* v is returned: what lies beyond v lies beyond mm *)
      destruct (le x v) eqn:Hx; cbn; [apply eq_sym, andb_false_r|].
      rewrite (tpo_trans _ O mm v x Hv (tpo_total _ O _ _ Hx)). reflexivity.
    - (* mm is returned: it already excludes everything v excludes *)
      destruct (le mm x) eqn:Hm; [|reflexivity]. destruct (le x v) eqn:Hx; [|reflexivity].
      rewrite (tpo_trans _ O _ _ _ Hm Hx) in Hv. discriminate.
  Qed.

  (* [R] is the order as a proposition at the instance ([Qle], or its converse for the upper side) *)
  Lemma side_tight (R : Q -> Q -> Prop) m e b ex : (forall a c, le a c = true -> R a c) ->
    norm m e = (Some b, ex) ->
    (m = Some b \/ e = Some (ExNum b)) /\
    (forall mm, m = Some mm -> R mm b) /\ (forall v, e = Some (ExNum v) -> R v b).
  Proof.
    intros le_R H. split; [exact (norm_side_stated _ _ _ _ _ H)|]. revert H. unfold norm, norm_side.
    pose proof (fun a => le_R a a (tpo_refl _ O a)) as R_refl.
    destruct m as [mm|], e as [[x|v]|]; cbn.
    2: { (* both stated: the one kept is compared with the other *)
      destruct (le mm v) eqn:Hv; intros [= <- <-]; split; intros ? [= <-]; try apply R_refl.
      - (* v kept: the test said so *) exact (le_R _ _ Hv).
      - (* mm kept: by totality *) exact (le_R _ _ (tpo_total _ O _ _ Hv)). }
    (* one constant stated, or none: it is compared with itself *)
    all: intros [= <- <-]; split; intros ? [= <-]; apply R_refl.
  Qed.

  Lemma side_tie q : norm (Some q) (Some (ExNum q)) = (Some q, true).
  Proof. unfold norm, norm_side. rewrite (tpo_refl _ O). reflexivity. Qed.
End Side.

Lemma lower_exact m e x : accept_lower (norm_min m e) x = spec_lower m e x.
Proof. exact (side_exact _ tpo_Qle m e x). Qed.
Lemma upper_exact m e x : accept_upper (norm_max m e) x = spec_upper m e x.
Proof. exact (side_exact _ (tpo_converse _ tpo_Qle) m e x). Qed.

Lemma bounds_exact b x : accept_bounds b x = spec_bounds b x.
Proof.
  unfold accept_bounds, spec_bounds. rewrite lower_exact, upper_exact. apply andb_comm.
Qed.

Lemma norm_min_tight m e b ex :
  norm_min m e = (Some b, ex) ->
  (m = Some b \/ e = Some (ExNum b)) /\
  (forall mm, m = Some mm -> mm <= b) /\ (forall v, e = Some (ExNum v) -> v <= b).
Proof. exact (side_tight _ tpo_Qle Qle m e b ex Qle_bool_imp_le). Qed.
Lemma norm_max_tight m e b ex :
  norm_max m e = (Some b, ex) ->
  (m = Some b \/ e = Some (ExNum b)) /\
  (forall mm, m = Some mm -> b <= mm) /\ (forall v, e = Some (ExNum v) -> b <= v).
Proof. exact (side_tight _ (tpo_converse _ tpo_Qle) (fun a c => c <= a) m e b ex (fun a c => Qle_bool_imp_le c a)). Qed.

Lemma norm_min_tie q : norm_min (Some q) (Some (ExNum q)) = (Some q, true).
Proof. exact (side_tie _ tpo_Qle q). Qed.
Lemma norm_max_tie q : norm_max (Some q) (Some (ExNum q)) = (Some q, true).
Proof. exact (side_tie _ (tpo_converse _ tpo_Qle) q). Qed.

Lemma norm_none_iff m e : fst (norm_min m e) = None <-> (m = None /\ forall v, e <> Some (ExNum v)).
Proof. exact (norm_side_none Qgeb m e). Qed.
