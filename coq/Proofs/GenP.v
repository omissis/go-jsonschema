(* The generator model (Model/Gen.v) through lemmas: the [res] monad, sorting and naming of properties,
   one step of [gen] as equations (branch by branch, at fuel [S f], the recursive calls left folded),
   the fields generated for the properties of an object as one [Forall2] statement with its views,
   and from these the generator's part of C04 (a required key gets its presence check), C02 (a field bound to each key), C10 (references
   are shared), C11 (an allOf node is its merge), C16 (--only-models) and C18 (failures propagate). *)
From GJS Require Import Base Bounds IntSize Schema SchemaP GoType Ident Gen.
From Coq Require Import Permutation.

Lemma rbind_Done {A B} (r : res A) (g : A -> res B) y : rbind r g = Done y -> exists x, r = Done x /\ g x = Done y.
Proof. destruct r as [x| | |]; cbn; try discriminate. intros H. exists x. split; [reflexivity|exact H]. Qed.

Lemma rmap_Done {A B} (F : A -> res B) (l : list A) (ys : list B) :
  rmap F l = Done ys -> Forall2 (fun x y => F x = Done y) l ys.
Proof.
  revert ys. induction l as [|x r IH]; intros ys H; cbn in H.
  - inversion H. constructor.
  - apply rbind_Done in H. destruct H as [y [E H]]. apply rbind_Done in H. destruct H as [ys' [E2 H]].
    inversion H; subst. constructor; auto.
Qed.

Lemma unless_Done {A} (c : bool) (y : res A) r : (if c then GUnmod else y) = Done r -> c = false /\ y = Done r.
Proof. destruct c; [discriminate|auto]. Qed.

Definition rpost {A} (P : A -> Prop) (r : res A) : Prop := match r with Done x => P x | _ => True end.
Lemma rpost_Done {A} (P : A -> Prop) r x : rpost P r -> r = Done x -> P x.
Proof. intros H ->. exact H. Qed.
Lemma rpost_bind {A B} (P : A -> Prop) (Q : B -> Prop) r g : rpost P r -> (forall x, P x -> rpost Q (g x)) -> rpost Q (rbind r g).
Proof. destruct r; cbn; auto. Qed.
Lemma rpost_rmap {A B} (Q : B -> Prop) (F : A -> res B) l : (forall x, In x l -> rpost Q (F x)) -> rpost (Forall Q) (rmap F l).
Proof.
  induction l as [|x r IH]; intros H; cbn [rmap]; [constructor|].
  apply (rpost_bind Q); [apply H; left; reflexivity|]. intros y Hy.
  apply (rpost_bind (Forall Q)); [apply IH; intros z Hz; apply H; right; exact Hz|]. intros ys Hys. constructor; assumption.
Qed.

Definition is_done {A} (r : res A) : bool := match r with Done _ => true | _ => false end.

Lemma rbind_not_done {A B} (r : res A) (g : A -> res B) : is_done r = false -> is_done (rbind r g) = false.
Proof. destruct r; cbn; congruence. Qed.

Lemma rmap_not_done {A B} (F : A -> res B) (l : list A) x : In x l -> is_done (F x) = false -> is_done (rmap F l) = false.
Proof.
  induction l as [|y r IH]; intros Hin Hx; [contradiction|]. cbn [rmap].
  destruct Hin as [->|Hin].
  - apply rbind_not_done. exact Hx.
  - destruct (F y); cbn [rbind]; try reflexivity. apply rbind_not_done. apply IH; assumption.
Qed.

Lemma insert_prop_length {A} (kv : str * A) l : length (insert_prop kv l) = S (length l).
Proof. exact (Permutation_length (insert_prop_perm kv l)). Qed.

Lemma assign_fields_length ids : forall seen, length (assign_fields ids seen) = length ids.
Proof. induction ids as [|i r IH]; intros seen; cbn; [reflexivity|]. destruct (count_of i seen); cbn; rewrite IH; reflexivity. Qed.
Lemma field_names_length ids : length (field_names ids) = length ids.
Proof. apply assign_fields_length. Qed.

(* [has_bound_kw] is the test that attaches the numeric validator ([field_validators]): where it fails the
   specification asks nothing of a number *)
Lemma no_bound_kw mult b x : has_bound_kw mult b = false -> spec_numeric mult b x = true.
Proof.
  unfold has_bound_kw. destruct mult; [discriminate|]. destruct b as [mn mx emn emx]. cbn [b_min b_max b_exmin b_exmax].
  destruct mn; [discriminate|]. destruct mx; [discriminate|]. destruct emn; [discriminate|]. destruct emx; [discriminate|]. intros _. reflexivity.
Qed.

Lemma array_validators_cases fname jn mn mx depth e :
  e = TNullT /\ array_validators fname jn mn mx depth (TSlice true e) = [VNullType fname jn depth] \/
  array_validators fname jn mn mx depth (TSlice true e)
  = (if negb (Nat.eqb mn 0) || negb (Nat.eqb mx 0) then [VArray fname jn depth mn mx] else [])
    ++ array_validators fname jn mn mx (S depth) e.
Proof. destruct e; auto. Qed.

Lemma array_validators_slice fname jn mn mx depth e : e <> TNullT ->
  array_validators fname jn mn mx depth (TSlice true e)
  = (if negb (Nat.eqb mn 0) || negb (Nat.eqb mx 0) then [VArray fname jn depth mn mx] else [])
    ++ array_validators fname jn mn mx (S depth) e.
Proof. intros H. destruct (array_validators_cases fname jn mn mx depth e) as [[E _]|E]; [contradiction|exact E]. Qed.

Section GenP.
Variable idf : str -> str.
Variable cf : cfg.
Variable defs : list (str * schema).
Notation gen := (gen idf cf defs).

Lemma prop_names_fst props : map fst (prop_names idf props) = field_names (map (fun kp => idf (fst kp)) (sort_props props)).
Proof. apply combine_fst. rewrite field_names_length, map_length. reflexivity. Qed.
Lemma prop_names_snd props : map snd (prop_names idf props) = sort_props props.
Proof. apply combine_snd. rewrite field_names_length, map_length. reflexivity. Qed.

Lemma prop_names_In props k p : In (k, p) props -> exists fname, In (fname, (k, p)) (prop_names idf props).
Proof.
  intros H. apply sort_props_In in H. rewrite <- prop_names_snd in H. apply in_map_iff in H.
  destruct H as [[fname kp] [E H]]. cbn [snd] in E. subst kp. exists fname. exact H.
Qed.
Lemma prop_names_In_inv np props : In np (prop_names idf props) -> In (snd np) props.
Proof. intros H. apply sort_props_In. rewrite <- prop_names_snd. exact (in_map snd _ _ H). Qed.

Lemma gen_declared f self sub s scope :
  gen (S f) MDeclared self sub s scope =
  match c_enum (s_con s) with
  | Some _ => gen f MType self sub s scope
  | None => rbind (gen f MType self sub s scope) (declare cf scope sub (s_con s))
  end.
Proof. reflexivity. Qed.

(* In the equations below the schema is taken apart first: with constructors where [gen] looks at [c_enum], [c_ref], [s_all_of] ...
   each holds by conversion along the one branch taken, where [cbn [Gen.gen]] on a variable schema normalises every branch. *)

(* generateTypeInline hands enums and references over to generateDeclaredType *)
Lemma gen_inline_named f self sub s scope :
  c_enum (s_con s) <> None \/ c_ref (s_con s) <> None -> gen (S f) MInline self sub s scope = gen f MDeclared self sub s scope.
Proof.
  destruct s as [[ty rf en rq mni mxi mnl mxl pt mu bd df fm] props addl af items allof anyof]. cbn [s_con c_enum c_ref].
  destruct en; [reflexivity|]. destruct rf; [reflexivity|]. intros [H|H]; contradiction H; reflexivity.
Qed.

Lemma gen_inline_typed f self sub s scope t :
  c_enum (s_con s) = None -> c_ref (s_con s) = None -> s_all_of s = [] -> s_any_of s = [] -> c_types (s_con s) = [t] ->
  gen (S f) MInline self sub s scope =
  if is_prim_sty t then if sub then GUnmod else primitive cf t (c_format (s_con s)) false (c_bounds (s_con s))
  else match t with
       | SArray =>
           match s_items s with
           | None => Done (TSlice true TIface, c_bounds (s_con s))
           | Some it => rbind (gen f MInline self false it (scope ++ s_Elem)) (fun r => Done (TSlice true (fst r), c_bounds (s_con s)))
           end
       | _ => gen f MDeclared self sub s scope
       end.
Proof.
  destruct s as [[ty rf en rq mni mxi mnl mxl pt mu bd df fm] props addl af items allof anyof]. cbn [s_con c_enum c_ref c_types s_all_of s_any_of].
  intros -> -> -> -> ->. reflexivity.
Qed.

(* the same node under generateType; [determine_type] also covers a type list [t; null] *)
Lemma gen_type_typed f self sub s scope t ptr :
  c_enum (s_con s) = None -> c_ref (s_con s) = None -> s_all_of s = [] -> s_any_of s = [] -> determine_type (s_con s) = (t, ptr) ->
  gen (S f) MType self sub s scope =
  match t with
  | SArray =>
      match s_items s with
      | None => GErr
      | Some it => rbind (gen f MType self false it (scope ++ s_Elem)) (fun r => Done (TSlice false (fst r), c_bounds (s_con s)))
      end
  | SObject =>
      match s_props s with
      | [] =>
          match s_addl s with
          | Some a => rbind (gen f MType self false a (scope ++ s_Value)) (fun r => Done (TMap (fst r), c_bounds (s_con s)))
          | None => Done (TMap TIface, c_bounds (s_con s))
          end
      | props =>
          rbind (rmap (gen_field defs (fun p sc => gen f MInline self false p sc) (s_con s) self scope) (prop_names idf props))
                (build_struct s (c_bounds (s_con s)))
      end
  | SNull => Done (TIface, c_bounds (s_con s))
  | _ => primitive cf t (c_format (s_con s)) ptr (c_bounds (s_con s))
  end.
Proof.
  destruct s as [[ty rf en rq mni mxi mnl mxl pt mu bd df fm] props addl af items allof anyof]. cbn [s_con c_enum c_ref s_all_of s_any_of].
  intros -> -> -> -> Ht. cbn [Gen.gen s_con c_enum c_ref s_all_of s_any_of]. rewrite Ht.
  (* the match on the type list is still in the term *) destruct ty; reflexivity.
Qed.

Lemma gen_type_ref f self sub s scope x :
  c_enum (s_con s) = None -> c_ref (s_con s) = Some x ->
  gen (S f) MType self sub s scope =
  match lookup x defs with
  | None => GErr
  | Some d => match c_types (s_con d), s_props d with
              | [], [] => Done (TIface, c_bounds (s_con s))
              | _, _ => Done (TRef x, c_bounds (s_con s))
              end
  end.
Proof. destruct s as [[ty rf en rq mni mxi mnl mxl pt mu bd df fm] props addl af items allof anyof]. cbn [s_con c_enum c_ref]. intros -> ->. reflexivity. Qed.

(* generateEnumType (schema_generator.go 1001-1149) for a non-empty enum under one declared type: the [c_types = [t]]
   branch of [gen] at [MType], which does not recurse; named so that the equations below can state it *)
Definition enum_typed (c : scon) (t : sty) (vals : list json) (scope : str) : res (gty * bounds) :=
  rbind (primitive cf t (c_format c) false (c_bounds c)) (fun r =>
    let '(carrier, b) := r in
    match t with
    | SInteger =>
        match all_numbers_to_int vals with
        | Some es => Done (TEnum scope carrier false es, b)
        | None => GErr
        end
    | _ =>
        match rmap (fun v => match ev_of_json v with Some e => Done e | None => GUnmod end) vals with
        | Done es => Done (TEnum scope carrier (sty_eqb t SNull) es, b)
        | _ => GUnmod
        end
    end).

Lemma gen_type_enum f self sub s scope v vs t :
  c_enum (s_con s) = Some (v :: vs) -> c_types (s_con s) = [t] ->
  gen (S f) MType self sub s scope = enum_typed (s_con s) t (v :: vs) scope.
Proof. destruct s as [[ty rf en rq mni mxi mnl mxl pt mu bd df fm] props addl af items allof anyof]. cbn [s_con c_enum c_types]. intros -> ->. reflexivity. Qed.

(* through generateTypeInline and generateDeclaredType an enum takes two more steps *)
Lemma gen_inline_enum_typed f self sub s scope v vs t :
  c_enum (s_con s) = Some (v :: vs) -> c_types (s_con s) = [t] ->
  gen (S f) MInline self sub s scope =
  match f with S (S _) => enum_typed (s_con s) t (v :: vs) scope | _ => GFuel end.
Proof.
  intros He Ht. rewrite gen_inline_named by (left; congruence). destruct f as [|[|f]]; [reflexivity| |]; rewrite gen_declared, He.
  - reflexivity.
  - exact (gen_type_enum f self sub s scope v vs t He Ht).
Qed.

Definition plain_object (s : schema) : Prop :=
  c_enum (s_con s) = None /\ c_ref (s_con s) = None /\ fst (determine_type (s_con s)) = SObject /\
  s_props s <> [] /\ s_all_of s = [] /\ s_any_of s = [].

(* a reference to such a definition is never nillable (NamedType.IsNillable of a struct) *)
Lemma def_not_nillable x d self : lookup x defs = Some d -> plain_object d -> ref_nillable defs self x = false.
Proof.
  intros Hl (He & Hr & Ht & Hp & _). unfold ref_nillable.
  assert (Hd : def_nillable defs (S (length defs)) x = false).
  { cbn [def_nillable]. rewrite Hl, He, Hr. destruct (determine_type (s_con d)) as [ty ptr]. cbn [fst] in Ht. subst ty.
    destruct (s_props d); [contradiction Hp; reflexivity|reflexivity]. }
  destruct self as [me|]; [destruct (str_eqb me x); [reflexivity|exact Hd]|exact Hd].
Qed.

(* [make_field], case by case: a property with a default is a value field (never pointer-wrapped by the optional rule), does not count
   as required, and its `default` assignment precedes its own validators; one without is a pointer unless required or nillable *)
Lemma make_field_default c self fname k p ty bp dv :
  c_default (s_con p) = Some dv ->
  make_field defs c self fname k p ty bp
  = (mkField fname k (negb (mem k (c_required c))) ty (Some (default_property_value p dv)) false, false,
     VDefault fname k ty (default_property_value p dv) :: field_validators fname k (s_con p) bp ty false).
Proof. intros H. unfold make_field. rewrite H. reflexivity. Qed.

Lemma make_field_no_default c self fname k p ty bp :
  c_default (s_con p) = None ->
  make_field defs c self fname k p ty bp
  = let req := mem k (c_required c) in
    let ty' := if req || nillable_ty (ref_nillable defs self) ty then ty else TPtr ty in
    (mkField fname k (negb req) ty' None false, req, field_validators fname k (s_con p) bp ty' false).
Proof. intros H. unfold make_field. rewrite H. destruct (mem k (c_required c)); reflexivity. Qed.

Lemma make_field_binds c self fname k p ty bp :
  let fl := fst (fst (make_field defs c self fname k p ty bp)) in
  f_name fl = fname /\ f_json fl = k /\ f_addl fl = false /\ (f_ty fl = ty \/ f_ty fl = TPtr ty).
Proof.
  destruct (c_default (s_con p)) as [dv|] eqn:E; [rewrite (make_field_default _ _ _ _ _ _ _ _ E)|rewrite (make_field_no_default _ _ _ _ _ _ _ E)];
    cbn [fst f_name f_json f_addl f_ty]; repeat split; auto.
  destruct (_ || _); auto.
Qed.

(* [field_of rec c self scope np i]: i is the field, with its validators, made for the named property np of the type [rec] generates for it *)
Definition field_of (rec : schema -> str -> res (gty * bounds)) (c : scon) (self : option str) (scope : str)
                    (np : str * (str * schema)) (i : finfo) : Prop :=
  exists ty bp, rec (snd (snd np)) (scope ++ fst np) = Done (ty, bp) /\
    i = make_field defs c self (fst np) (fst (snd np)) (snd (snd np)) ty bp.

Lemma gen_fields_Done rec c self scope nps infos :
  rmap (gen_field defs rec c self scope) nps = Done infos -> Forall2 (field_of rec c self scope) nps infos.
Proof.
  intros H. apply (Forall2_impl_In _ _ _ _ (rmap_Done _ _ _ H)). intros [fname [k p]] i _. unfold field_of. cbn [gen_field fst snd].
  destruct (rec p (scope ++ fname)) as [[ty bp]| | |]; try discriminate. intros [= <-]. exists ty, bp. split; reflexivity.
Qed.

Lemma fields_of_names rec c self scope nps infos :
  Forall2 (field_of rec c self scope) nps infos -> map (fun i : finfo => f_name (fst (fst i))) infos = map fst nps.
Proof. intros H. symmetry. apply (Forall2_map_eq _ _ _ _ _ H). intros np i _ (ty & bp & _ & ->). symmetry. apply make_field_binds. Qed.

Lemma fields_of_not_addl rec c self scope nps infos :
  Forall2 (field_of rec c self scope) nps infos -> find f_addl (map (fun i : finfo => fst (fst i)) infos) = None.
Proof.
  intros H. apply find_all_false. intros fl Hin. apply in_map_iff in Hin. destruct Hin as (i & <- & Hi).
  destruct (Forall2_In_r _ _ _ i H Hi) as (np & _ & ty & bp & _ & ->). apply make_field_binds.
Qed.

Lemma gen_type_object f self sub s scope t b :
  plain_object s -> gen (S f) MType self sub s scope = Done (t, b) ->
  exists infos,
    Forall2 (field_of (fun p sc => gen f MInline self false p sc) (s_con s) self scope) (prop_names idf (s_props s)) infos /\
    build_struct s (c_bounds (s_con s)) infos = Done (t, b).
Proof.
  intros (He & Hr & Ht & Hp & Hall & Hany) H. destruct (determine_type (s_con s)) as [t0 ptr] eqn:Hd. cbn [fst] in Ht. subst t0.
  rewrite (gen_type_typed f self sub s scope SObject ptr He Hr Hall Hany Hd) in H. destruct (s_props s) as [|kp props]; [contradiction|].
  apply rbind_Done in H. destruct H as [infos [H1 H2]]. exists infos. split; [exact (gen_fields_Done _ _ _ _ _ _ H1)|exact H2].
Qed.

Lemma required_checks (infos : list finfo) :
  exists ks, flat_map (fun i : finfo => if snd (fst i) then [VRequired (f_json (fst (fst i)))] else []) infos = map VRequired ks.
Proof.
  induction infos as [|i r [ks IH]]; [exists []; reflexivity|]. cbn [flat_map]. rewrite IH.
  destruct (snd (fst i)); [exists (f_json (fst (fst i)) :: ks)|exists ks]; reflexivity.
Qed.

Lemma gen_object_struct f self sub s scope t b :
  plain_object s -> s_addl s = None -> gen (S f) MType self sub s scope = Done (t, b) ->
  exists infos,
    Forall2 (field_of (fun p sc => gen f MInline self false p sc) (s_con s) self scope) (prop_names idf (s_props s)) infos /\
    t = TStruct [] (map (fun i : finfo => fst (fst i)) infos)
          (Some (flat_map (fun i : finfo => if snd (fst i) then [VRequired (f_json (fst (fst i)))] else []) infos ++ flat_map (fun i : finfo => snd i) infos)).
Proof.
  intros Hp Ha Hg. destruct (gen_type_object f self sub s scope t b Hp Hg) as [infos [HF H2]]. exists infos.
  unfold build_struct in H2. rewrite Ha in H2. inversion H2. split; [exact HF|reflexivity].
Qed.

Lemma gen_object_infos (P : finfo -> Prop) f self sub s scope t b :
  plain_object s -> s_addl s = None -> gen (S f) MType self sub s scope = Done (t, b) ->
  (forall fname k p ty bp, In (fname, (k, p)) (prop_names idf (s_props s)) ->
     gen f MInline self false p (scope ++ fname) = Done (ty, bp) -> P (make_field defs (s_con s) self fname k p ty bp)) ->
  exists infos, Forall P infos /\ map (fun i : finfo => f_name (fst (fst i))) infos = map fst (prop_names idf (s_props s)) /\
    find f_addl (map (fun i : finfo => fst (fst i)) infos) = None /\
    t = TStruct [] (map (fun i : finfo => fst (fst i)) infos)
          (Some (flat_map (fun i : finfo => if snd (fst i) then [VRequired (f_json (fst (fst i)))] else []) infos ++ flat_map (fun i : finfo => snd i) infos)).
Proof.
  intros Hp Ha Hg HP. destruct (gen_object_struct f self sub s scope t b Hp Ha Hg) as (infos & HF & ->). exists infos.
  split; [|split; [exact (fields_of_names _ _ _ _ _ _ HF)|split; [exact (fields_of_not_addl _ _ _ _ _ _ HF)|reflexivity]]].
  apply (Forall2_Forall_r _ _ _ _ HF). intros [fname [k p]] i Hin (ty & bp & Hgen & ->). exact (HP fname k p ty bp Hin Hgen).
Qed.

(* [build_struct]: the fields and validators of the properties come first; what additionalProperties adds comes last *)
Lemma build_struct_Done s b0 infos t b :
  build_struct s b0 infos = Done (t, b) ->
  exists fa va, t = TStruct [] (map (fun i : finfo => fst (fst i)) infos ++ fa)
    (Some (flat_map (fun i : finfo => if snd (fst i) then [VRequired (f_json (fst (fst i)))] else []) infos ++ flat_map (fun i : finfo => snd i) infos ++ va)).
Proof.
  unfold build_struct. destruct (s_addl s) as [a|]; [destruct (s_addl_false s)|].
  2: destruct (c_types (s_con a)) as [|t0 [|t1 r]]; try discriminate.
  all: intros [= <- _].
  - exists [], []. rewrite !app_nil_r. reflexivity.
  - exists [mkField s_AdditionalProperties [] false TIface None true], []. rewrite app_nil_r. reflexivity.
  - eexists [_], [_]. reflexivity.
  - exists [], []. rewrite !app_nil_r. reflexivity.
Qed.

Lemma build_struct_shape s b0 infos t b :
  build_struct s b0 infos = Done (t, b) ->
  exists fs plan, t = TStruct [] fs (Some plan) /\
    (forall i, In i infos -> In (fst (fst i)) fs) /\
    (forall i, In i infos -> snd (fst i) = true -> In (VRequired (f_json (fst (fst i)))) plan) /\
    (forall i v, In i infos -> In v (snd i) -> In v plan).
Proof.
  intros H. destruct (build_struct_Done s b0 infos t b H) as (fa & va & ->). eexists; eexists. split; [reflexivity|]. split; [|split].
  - intros i Hi. apply in_or_app. left. exact (in_map (fun i : finfo => fst (fst i)) infos i Hi).
  - intros i Hi Ht. apply in_or_app. left. apply in_flat_map. exists i. rewrite Ht. split; [exact Hi|left; reflexivity].
  - intros i v Hi Hv. apply in_or_app. right. apply in_or_app. left. apply in_flat_map. exists i. split; assumption.
Qed.

Lemma object_property f self sub s scope t b k p :
  plain_object s -> gen (S f) MType self sub s scope = Done (t, b) -> In (k, p) (s_props s) ->
  exists infos fname ty bp,
    build_struct s (c_bounds (s_con s)) infos = Done (t, b) /\
    gen f MInline self false p (scope ++ fname) = Done (ty, bp) /\
    In (make_field defs (s_con s) self fname k p ty bp) infos.
Proof.
  intros Hobj H Hin.
  destruct (gen_type_object f self sub s scope t b Hobj H) as (infos & HF & Hbuild).
  destruct (prop_names_In _ _ _ Hin) as [fname Hn].
  destruct (Forall2_In_l _ _ _ _ HF Hn) as (i & Hi & ty & bp & Hg & ->).
  exists infos, fname, ty, bp. repeat split; assumption.
Qed.

(* a required property without a default gets its presence check *)
Theorem object_required_check f self sub s scope t b k p :
  plain_object s -> gen (S f) MType self sub s scope = Done (t, b) ->
  In (k, p) (s_props s) -> mem k (c_required (s_con s)) = true -> c_default (s_con p) = None ->
  exists fs plan, t = TStruct [] fs (Some plan) /\ In (VRequired k) plan.
Proof.
  intros Hobj H Hin Hreq Hdef.
  destruct (object_property f self sub s scope t b k p Hobj H Hin) as (infos & fname & ty & bp & Hbuild & _ & Hi).
  destruct (build_struct_shape _ _ _ _ _ Hbuild) as (fs & plan & -> & _ & Hq & _).
  exists fs, plan. split; [reflexivity|].
  specialize (Hq _ Hi). rewrite (make_field_no_default _ _ _ _ _ _ _ Hdef), Hreq in Hq. exact (Hq eq_refl).
Qed.

(* every property gets a field bound to its exact key, of the type generated for the property schema (or a pointer to it) *)
Theorem object_field_bound f self sub s scope t b k p :
  plain_object s -> gen (S f) MType self sub s scope = Done (t, b) -> In (k, p) (s_props s) ->
  exists fs plan fl ty bp, t = TStruct [] fs (Some plan) /\ In fl fs /\ f_json fl = k /\ f_addl fl = false /\
    gen f MInline self false p (scope ++ f_name fl) = Done (ty, bp) /\ (f_ty fl = ty \/ f_ty fl = TPtr ty).
Proof.
  intros Hobj H Hin.
  destruct (object_property f self sub s scope t b k p Hobj H Hin) as (infos & fname & ty & bp & Hbuild & Hg & Hi).
  destruct (build_struct_shape _ _ _ _ _ Hbuild) as (fs & plan & -> & Hf & _ & _).
  exists fs, plan, (fst (fst (make_field defs (s_con s) self fname k p ty bp))), ty, bp.
  split; [reflexivity|]. split; [exact (Hf _ Hi)|].
  destruct (make_field_binds (s_con s) self fname k p ty bp) as (Hn & Hj & Ha & Hty). rewrite Hn.
  exact (conj Hj (conj Ha (conj Hg Hty))).
Qed.

Lemma gen_inline_object_eq f self sub s scope :
  c_enum (s_con s) = None -> c_ref (s_con s) = None -> s_all_of s = [] -> s_any_of s = [] -> c_types (s_con s) = [SObject] ->
  gen (S f) MInline self sub s scope = gen f MDeclared self sub s scope.
Proof. exact (fun He Hr Hall Hany Ht => gen_inline_typed f self sub s scope SObject He Hr Hall Hany Ht). Qed.

Lemma declare_struct scope sub c fs vs b :
  declare cf scope sub c (TStruct [] fs (Some vs), b)
  = Done (TStruct scope fs (if g_only_models cf then None else if sub || negb (length vs =? 0) then Some vs else None), b).
Proof. reflexivity. Qed.

Lemma declared_struct_shape f self sub s scope t b :
  plain_object s -> gen f MDeclared self sub s scope = Done (t, b) -> exists fs plan, t = TStruct scope fs plan.
Proof.
  intros Hp Hg. pose proof Hp as (He & _).
  destruct f as [|f]; [discriminate|]. rewrite gen_declared, He in Hg. destruct f as [|f]; [discriminate|].
  destruct (gen (S f) MType self sub s scope) as [[t0 b0]| | |] eqn:Eg; cbn [rbind] in Hg; try discriminate.
  destruct (gen_type_object f self sub s scope t0 b0 Hp Eg) as [infos [_ H2]].
  destruct (build_struct_shape _ _ _ _ _ H2) as (fs & plan & -> & _).
  rewrite declare_struct in Hg. inversion Hg. eexists; eexists; reflexivity.
Qed.

Theorem declared_object f self sub s scope t b k p :
  plain_object s -> g_only_models cf = false -> scope <> [] ->
  gen (S (S f)) MDeclared self sub s scope = Done (t, b) ->
  In (k, p) (s_props s) -> mem k (c_required (s_con s)) = true -> c_default (s_con p) = None ->
  exists c name fs plan, t = TStruct (c :: name) fs (Some plan) /\ In (VRequired k) plan.
Proof.
  intros Hobj Hom Hsc H Hin Hreq Hdef.
  pose proof Hobj as (He & _). rewrite gen_declared, He in H.
  destruct (gen (S f) MType self sub s scope) as [[t0 b0]| | |] eqn:E; cbn [rbind] in H; try discriminate.
  destruct (object_required_check f self sub s scope t0 b0 k p Hobj E Hin Hreq Hdef) as (fs & plan & -> & Hp).
  rewrite declare_struct, Hom in H.
  (* the plan contains [VRequired k], so it is not empty and [declare] keeps the method *)
  destruct plan as [|v plan]; [contradiction|]. cbn [length Nat.eqb negb] in H. rewrite orb_true_r in H.
  inversion H; subst. destruct scope as [|c name]; [contradiction|]. exists c, name, fs, (v :: plan). split; [reflexivity|exact Hp].
Qed.

Theorem inline_object f self sub s scope t b k p :
  plain_object s -> c_types (s_con s) = [SObject] -> g_only_models cf = false -> scope <> [] ->
  gen (S (S (S f))) MInline self sub s scope = Done (t, b) ->
  In (k, p) (s_props s) -> mem k (c_required (s_con s)) = true -> c_default (s_con p) = None ->
  exists c name fs plan, t = TStruct (c :: name) fs (Some plan) /\ In (VRequired k) plan.
Proof.
  intros Hobj Ht Hom Hsc H Hin Hreq Hdef.
  pose proof Hobj as (He & Hr & _ & _ & Hall & Hany).
  rewrite gen_inline_object_eq in H by assumption.
  eapply declared_object; eauto.
Qed.

(* C18: the ungeneratable elements are errors, and a failure is not dropped on the way up, at a property, an array item,
   a declaration or a definition.  [is_done r = false] also holds of [GFuel] and [GUnmod], so each step holds at every fuel,
   and the leaves are stated for every scope *)
Lemma unknown_type_fails fmt ptr b : primitive cf SUnknown fmt ptr b = GErr.
Proof. reflexivity. Qed.

Lemma missing_definition_fails f self sub s scope x :
  c_enum (s_con s) = None -> c_ref (s_con s) = Some x -> lookup x defs = None -> gen (S f) MType self sub s scope = GErr.
Proof. intros He Hr Hl. rewrite (gen_type_ref f self sub s scope x He Hr), Hl. reflexivity. Qed.

Lemma empty_enum_fails f self sub s scope : c_enum (s_con s) = Some [] -> gen (S f) MType self sub s scope = GErr.
Proof. destruct s as [[ty rf en rq mni mxi mnl mxl pt mu bd df fm] props addl af items allof anyof]. cbn [s_con c_enum]. intros ->. reflexivity. Qed.

Theorem object_fails_with_property f self sub s scope k p :
  plain_object s -> In (k, p) (s_props s) ->
  (forall sc, is_done (gen f MInline self false p sc) = false) ->
  is_done (gen (S f) MType self sub s scope) = false.
Proof.
  intros Hobj Hin Hbad.
  destruct (gen (S f) MType self sub s scope) as [[t b]| | |] eqn:E; try reflexivity.
  destruct (object_property f self sub s scope t b k p Hobj E Hin) as (_ & fname & ty & bp & _ & Hg & _).
  rewrite <- (Hbad (scope ++ fname)), Hg. reflexivity.
Qed.

Lemma declared_fails f self sub s scope :
  is_done (gen f MType self sub s scope) = false -> is_done (gen (S f) MDeclared self sub s scope) = false.
Proof. intros H. rewrite gen_declared. destruct (c_enum (s_con s)); [exact H|apply rbind_not_done, H]. Qed.

Lemma inline_object_fails f self sub s scope :
  c_enum (s_con s) = None -> c_ref (s_con s) = None -> s_all_of s = [] -> s_any_of s = [] -> c_types (s_con s) = [SObject] ->
  is_done (gen f MDeclared self sub s scope) = false -> is_done (gen (S f) MInline self sub s scope) = false.
Proof. intros He Hr Ha Hy Ht H. rewrite gen_inline_object_eq by assumption. exact H. Qed.

Lemma inline_array_fails f self sub s scope it :
  c_enum (s_con s) = None -> c_ref (s_con s) = None -> s_all_of s = [] -> s_any_of s = [] -> c_types (s_con s) = [SArray] ->
  s_items s = Some it -> (forall sc, is_done (gen f MInline self false it sc) = false) ->
  is_done (gen (S f) MInline self sub s scope) = false.
Proof.
  intros He Hr Ha Hy Ht Hi Hbad. rewrite (gen_inline_typed f self sub s scope SArray He Hr Ha Hy Ht). cbn [is_prim_sty]. rewrite Hi.
  apply rbind_not_done. apply Hbad.
Qed.

Theorem file_fails_with_definition root root_name name d :
  In (name, d) defs -> is_done (gen gen_fuel MDeclared (Some name) false d (idf name)) = false ->
  is_done (gen_file idf cf defs root root_name) = false.
Proof.
  intros Hin Hbad. unfold gen_file. apply rbind_not_done.
  apply rmap_not_done with (x := (name, d)); [apply sort_props_In; exact Hin|]. cbn [fst snd]. apply rbind_not_done. exact Hbad.
Qed.

(* C10: every reference to a definition (that has a type or properties) is the SAME named type, whatever the
   referring position, scope, mode or options: one Go type per definition, shared by all referrers *)
Theorem reference_is_shared f self sub s scope x d :
  c_enum (s_con s) = None -> c_ref (s_con s) = Some x -> lookup x defs = Some d ->
  (c_types (s_con d) <> [] \/ s_props d <> []) ->
  gen (S f) MType self sub s scope = Done (TRef x, c_bounds (s_con s)).
Proof.
  intros He Hr Hl Hd. rewrite (gen_type_ref f self sub s scope x He Hr), Hl.
  destruct (c_types (s_con d)), (s_props d); try reflexivity. destruct Hd; contradiction.
Qed.

(* a definition reached through generateDeclaredType / generateTypeInline is not declared again *)
Theorem reference_not_redeclared f self sub s scope x d :
  c_enum (s_con s) = None -> c_ref (s_con s) = Some x -> lookup x defs = Some d ->
  (c_types (s_con d) <> [] \/ s_props d <> []) ->
  gen (S (S f)) MDeclared self sub s scope = Done (TRef x, c_bounds (s_con s)) /\
  gen (S (S (S f))) MInline self sub s scope = Done (TRef x, c_bounds (s_con s)).
Proof.
  intros He Hr Hl Hd. rewrite gen_inline_named, gen_declared, He by (right; congruence).
  rewrite (reference_is_shared f self sub s scope x d He Hr Hl Hd). split; reflexivity.
Qed.

(* allOf: the node is generated as the merge of its resolved branches *)
Lemma allof_generated f self sub c props addl af items b bs scope m :
  c_enum c = None -> c_ref c = None -> all_of_schema defs (b :: bs) = Done m ->
  gen (S f) MInline self sub (Sch c props addl af items (b :: bs) []) scope = gen f MInline self false m scope.
Proof.
  intros He Hr Hm. cbn [Gen.gen s_con s_any_of s_all_of]. rewrite He, Hr, Hm. reflexivity.
Qed.
End GenP.

Definition no_method (t : gty) : bool :=
  match t with
  | TStruct _ _ (Some _) | TNamed _ _ (Some _) => false
  | _ => true
  end.

(* drops the method of the top type; the types nested inside keep theirs *)
Definition strip_plan (t : gty) : gty :=
  match t with
  | TStruct n fs _ => TStruct n fs None
  | TNamed n u _ => TNamed n u None
  | _ => t
  end.

(* up to the method, what [declare] returns is a function of the scope and the undeclared type alone;
   the configuration decides the method and nothing else *)
Lemma declare_shape cf scope sub c t0 b0 : is_named_ty t0 = false ->
  exists t, declare cf scope sub c (t0, b0) = Done (t, b0) /\
    strip_plan t = match t0 with TStruct _ fs _ => TStruct scope fs None | _ => TNamed scope t0 None end /\
    (g_only_models cf = true -> no_method t = true).
Proof.
  unfold declare. intros EN. rewrite EN.
  destruct t0 as [| | | | | | | | | |[|] fs [vs|]| | |]; try discriminate.
  all: eexists; split; [reflexivity|]; split; [reflexivity|]; intros Hom; rewrite ?Hom; reflexivity.
Qed.

(* C16: --only-models never attaches a method ... (generateDeclaredType returns right after AddDecl) *)
Theorem declare_only_models_no_method mn scope sub c t0 b0 t b :
  is_named_ty t0 = false -> declare (mkCfg mn true) scope sub c (t0, b0) = Done (t, b) -> no_method t = true.
Proof.
  intros EN H. destruct (declare_shape (mkCfg mn true) scope sub c t0 b0 EN) as (t1 & E & _ & Hm).
  rewrite E in H. injection H as <- _. exact (Hm eq_refl).
Qed.

(* ... and [declare], given the same undeclared type, returns the same type as without the option once the top method is dropped
   (one step of the generator: in a whole run the nested types lose their methods too, which [strip_plan] does not reach) *)
Theorem declare_only_models_same_type mn scope sub c t0 b0 t b t' b' :
  is_named_ty t0 = false ->
  declare (mkCfg mn false) scope sub c (t0, b0) = Done (t, b) -> declare (mkCfg mn true) scope sub c (t0, b0) = Done (t', b') ->
  strip_plan t = strip_plan t' /\ b = b'.
Proof.
  intros EN H1 H2.
  destruct (declare_shape (mkCfg mn false) scope sub c t0 b0 EN) as (t1 & E1 & S1 & _).
  destruct (declare_shape (mkCfg mn true) scope sub c t0 b0 EN) as (t2 & E2 & S2 & _).
  rewrite E1 in H1. rewrite E2 in H2. injection H1 as <- <-. injection H2 as <- <-. rewrite S1, S2. split; reflexivity.
Qed.
