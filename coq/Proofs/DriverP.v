(* C12, C20 and the command-line part of C18, over Model/Driver.v and sort_props (Model/Schema.v).  Where the Go code ranges
   over a map the model takes the entries in an arbitrary order; here that order is shown not to matter (sorting, lookups,
   the scan in beginOutput, Sources()), the outputs table is shown to send every schema id to the file and package mapped to
   it, and the command to write nothing unless everything was generated. *)
From GJS Require Import Base Schema SchemaP Driver.

(* C12_lookup: lookups in a map with distinct keys do not depend on the entry order *)
Lemma lookup_perm {A} (l l' : list (str * A)) k : NoDup (map fst l) -> Permutation l l' -> lookup k l = lookup k l'.
Proof.
  intros ND P. destruct (lookup k l) as [v|] eqn:E; symmetry.
  - apply lookup_NoDup_In; rewrite <- P; [exact ND|apply lookup_In; exact E].
  - apply lookup_None. rewrite <- P. apply lookup_None. exact E.
Qed.

Definition files_distinct (outs : list (nat * outp)) : Prop := NoDup (map (fun p => o_file (snd p)) outs).

Lemma scan_outputs_None outs file pkg :
  scan_outputs outs file pkg = DOk None <-> ~ In file (map (fun p => o_file (snd p)) outs).
Proof.
  induction outs as [|[i o] r IH]; cbn; [tauto|].
  destruct (str_eqb_spec (o_file o) file) as [E|E]; cbn.
  - destruct (str_eqb (o_pkg o) pkg); cbn; (split; [discriminate|tauto]).
  - rewrite IH. tauto.
Qed.

Lemma scan_outputs_some outs file pkg i : scan_outputs outs file pkg = DOk (Some i) ->
  exists o, In (i, o) outs /\ o_file o = file /\ o_pkg o = pkg.
Proof.
  induction outs as [|[i0 o0] r IH]; cbn; [discriminate|].
  destruct (str_eqb_spec (o_file o0) file) as [E1|]; cbn.
  - destruct (str_eqb_spec (o_pkg o0) pkg) as [E2|]; cbn; [|discriminate].
    intros H. inversion H; subst. exists o0. auto.
  - intros H. destruct (IH H) as (o & Hin & Hf & Hp). exists o. auto.
Qed.

Lemma scan_outputs_present outs file pkg i o :
  files_distinct outs -> In (i, o) outs -> o_file o = file ->
  scan_outputs outs file pkg = if str_eqb (o_pkg o) pkg then DOk (Some i) else DErr.
Proof.
  unfold files_distinct. induction outs as [|[i0 o0] r IH]; cbn; [contradiction|]. intros ND Hin Hf.
  inversion ND as [|? ? Hnotin ND']; subst.
  destruct Hin as [Heq|Hin].
  - inversion Heq; subst. rewrite str_eqb_refl. cbn. destruct (str_eqb (o_pkg o) pkg); reflexivity.
  - destruct (str_eqb_spec (o_file o0) (o_file o)) as [E|]; [|cbn; apply IH; auto].
    exfalso. apply Hnotin. rewrite E. apply (in_map (fun p => o_file (snd p)) r (i, o) Hin).
Qed.

(* C12_outputs_scan, C20_scan_order: the conflict check and the reuse of an existing output in beginOutput do not depend
   on the map's iteration order *)
Theorem scan_outputs_order outs outs' file pkg :
  files_distinct outs -> Permutation outs outs' -> scan_outputs outs file pkg = scan_outputs outs' file pkg.
Proof.
  intros ND P.
  destruct (in_dec (list_eq_dec N.eq_dec) file (map (fun p => o_file (snd p)) outs)) as [Hin|Hnot].
  - apply in_map_iff in Hin. destruct Hin as [[i o] [Hf Hin]]. cbn in Hf.
    rewrite (scan_outputs_present outs file pkg i o ND Hin Hf). symmetry.
    apply scan_outputs_present; [unfold files_distinct in *; rewrite <- P; exact ND|rewrite <- P; exact Hin|exact Hf].
  - rewrite (proj2 (scan_outputs_None outs file pkg) Hnot). symmetry. apply scan_outputs_None. rewrite <- P. exact Hnot.
Qed.

Lemma add_source_lookup file text acc k :
  lookup k (add_source file text acc)
  = if str_eqb k file then Some (match lookup k acc with Some t => t ++ text | None => text end) else lookup k acc.
Proof.
  induction acc as [|[f t] r IH]; cbn; [reflexivity|].
  destruct (str_eqb f file) eqn:E; cbn.
  - apply str_eqb_eq in E. subst f. destruct (str_eqb k file); reflexivity.
  - rewrite IH. destruct (str_eqb_spec k f) as [->|]; [|reflexivity]. rewrite E. reflexivity.
Qed.

Lemma sources_fold_lookup texts : forall acc k, k <> [] -> NoDup (map fst texts) ->
  lookup k (fold_left (fun acc ft => match fst ft with [] => acc | _ => add_source (fst ft) (snd ft) acc end) texts acc)
  = match lookup k texts with
    | Some t => Some (match lookup k acc with Some t0 => t0 ++ t | None => t end)
    | None => lookup k acc
    end.
Proof.
  induction texts as [|[f t] r IH]; intros acc k Hk ND; cbn [fold_left lookup fst snd]; [reflexivity|].
  inversion ND as [|? ? Hnotin ND']; subst. rewrite (IH _ k Hk ND').
  destruct (str_eqb k f) eqn:E.
  - apply str_eqb_eq in E. subst f. rewrite (proj2 (lookup_None k r) Hnotin).
    destruct k; [contradiction|]. rewrite add_source_lookup, str_eqb_refl. reflexivity.
  - destruct f; [reflexivity|]. rewrite add_source_lookup, E. reflexivity.
Qed.

Theorem sources_lookup texts k : k <> [] -> NoDup (map fst texts) -> lookup k (sources texts) = lookup k texts.
Proof. intros Hk ND. unfold sources. rewrite sources_fold_lookup by assumption. destruct (lookup k texts); reflexivity. Qed.

(* C12_sources: Sources() concatenates per file name; with distinct names any two iteration orders give the same contents *)
Theorem sources_order texts texts' k : k <> [] -> NoDup (map fst texts) -> Permutation texts texts' ->
  lookup k (sources texts) = lookup k (sources texts').
Proof.
  intros Hk ND P. rewrite (sources_lookup texts k Hk ND), (sources_lookup texts' k Hk) by (rewrite <- P; exact ND).
  exact (lookup_perm texts texts' k ND P).
Qed.

(* C18_all_or_nothing: success writes every generated file; any failure means a non-zero status, a diagnostic and no write *)
Theorem cli_all_or_nothing flags_ok gen_all :
  (r_status (cli flags_ok gen_all) = 0 /\ exists srcs, gen_all = DOk srcs /\
     r_writes (cli flags_ok gen_all) = filter (fun ft => negb (str_eqb (fst ft) s_dash)) srcs)
  \/ (r_status (cli flags_ok gen_all) <> 0 /\ r_stderr_empty (cli flags_ok gen_all) = false /\
      r_stdout (cli flags_ok gen_all) = [] /\ r_writes (cli flags_ok gen_all) = []).
Proof.
  unfold cli. destruct flags_ok; cbn; [|right; repeat split; auto].
  destruct gen_all as [srcs|]; cbn; [left; split; [reflexivity|exists srcs; auto]|right; repeat split; auto].
Qed.

(* the invariant of the outputs table (C20): distinct outputs have distinct files, the i-th registered id points at the
   i-th output, and every registered id points at the output whose file and package are those mapped to it *)
Definition ds_wf (c : dcfg) (st : dstate) : Prop :=
  NoDup (map o_file (ds_outs st)) /\
  map snd (ds_ids st) = seq 0 (length (ds_outs st)) /\
  (forall id i, lookup id (ds_ids st) = Some i ->
     (o_file (nth i (ds_outs st) dflt_out), o_pkg (nth i (ds_outs st) dflt_out)) = target c id).

Lemma ds_init_wf c : ds_wf c ds_init.
Proof. repeat split; cbn; [constructor|discriminate]. Qed.

Lemma ds_index_lt st id i : map snd (ds_ids st) = seq 0 (length (ds_outs st)) -> In (id, i) (ds_ids st) -> i < length (ds_outs st).
Proof. intros Hidx H. apply (in_map snd) in H. rewrite Hidx in H. apply in_seq in H. apply H. Qed.

Lemma entries_files st : map snd (ds_ids st) = seq 0 (length (ds_outs st)) ->
  map (fun p => o_file (snd p)) (entries st) = map o_file (ds_outs st).
Proof.
  intros Hidx. unfold entries. rewrite map_map. cbn [snd].
  rewrite <- (map_map snd (fun i => o_file (nth i (ds_outs st) dflt_out))), Hidx.
  rewrite <- (map_map (fun i => nth i (ds_outs st) dflt_out) o_file), map_nth_seq. reflexivity.
Qed.

Lemma ds_wf_fresh c st id : ds_wf c st -> ~ In (fst (target c id)) (map o_file (ds_outs st)) ->
  ds_wf c (mkDs (ds_ids st ++ [(id, length (ds_outs st))]) (ds_outs st ++ [mkOut (fst (target c id)) (snd (target c id)) []])).
Proof.
  intros (Hnd & Hidx & Htgt) Hnew. unfold ds_wf. cbn [ds_ids ds_outs].
  rewrite !map_app, app_length, Nat.add_1_r, seq_S, Hidx. cbn [map o_file snd].
  split; [|split; [reflexivity|]].
  - rewrite <- Permutation_cons_append. constructor; assumption.
  - intros id' i'. rewrite lookup_app. destruct (lookup id' (ds_ids st)) as [i0|] eqn:E0; intros Hl.
    + inversion Hl; subst i'. rewrite app_nth1 by exact (ds_index_lt st _ _ Hidx (lookup_In _ _ _ E0)). apply Htgt. exact E0.
    + cbn in Hl. destruct (str_eqb_spec id' id) as [EI|]; [|discriminate]. inversion Hl; subst.
      rewrite nth_middle. symmetry. apply surjective_pairing.
Qed.

Lemma find_output_eq order c st id :
  find_output order c st id = match lookup id (ds_ids st) with
                              | Some i => DOk (st, i)
                              | None => begin_output order st id (fst (target c id)) (snd (target c id))
                              end.
Proof. unfold find_output, target. destruct (lookup id (ds_ids st)); [reflexivity|]. destruct (find_mapping id (d_mappings c)); reflexivity. Qed.

Lemma begin_output_inv order st id file pkg st' i : begin_output order st id file pkg = DOk (st', i) ->
  st' = st /\ scan_outputs (order (entries st)) file pkg = DOk (Some i)
  \/ scan_outputs (order (entries st)) file pkg = DOk None /\ i = length (ds_outs st) /\
     st' = mkDs (ds_ids st ++ [(id, i)]) (ds_outs st ++ [mkOut file pkg []]).
Proof.
  unfold begin_output. destruct pkg as [|pc pk]; [discriminate|].
  destruct (scan_outputs (order (entries st)) file (pc :: pk)) as [[j|]|]; intros H; inversion H; subst; auto.
Qed.

Lemma begin_output_wf order c st id st' i : (forall l, Permutation (order l) l) -> ds_wf c st ->
  begin_output order st id (fst (target c id)) (snd (target c id)) = DOk (st', i) -> ds_wf c st'.
Proof.
  intros Hord Hwf H. apply begin_output_inv in H. destruct H as [[-> _]|(ES & -> & ->)]; [exact Hwf|].
  apply scan_outputs_None in ES. rewrite Hord, (entries_files st (proj1 (proj2 Hwf))) in ES. apply ds_wf_fresh; assumption.
Qed.

Theorem find_output_sound order c st id st' i :
  (forall l, Permutation (order l) l) -> ds_wf c st ->
  find_output order c st id = DOk (st', i) ->
  ds_wf c st' /\ i < length (ds_outs st') /\
  (o_file (nth i (ds_outs st') dflt_out), o_pkg (nth i (ds_outs st') dflt_out)) = target c id.
Proof.
  intros Hord Hwf H. pose proof Hwf as (Hnd & Hidx & Htgt). rewrite find_output_eq in H.
  destruct (lookup id (ds_ids st)) as [i0|] eqn:EL.
  - injection H as <- <-. split; [exact Hwf|]. split; [|apply Htgt; exact EL].
    exact (ds_index_lt st _ _ Hidx (lookup_In _ _ _ EL)).
  - split; [exact (begin_output_wf order c st id st' i Hord Hwf H)|].
    apply begin_output_inv in H. destruct H as [[-> ES]|(_ & -> & ->)].
    + (* reuse: the scan answered with an entry of the map, whatever the order *)
      destruct (scan_outputs_some _ _ _ _ ES) as (o & Hin & Hf & Hp). rewrite Hord in Hin.
      apply in_map_iff in Hin. destruct Hin as [[id0 j] [Heq Hin]]. cbn in Heq. inversion Heq; subst.
      split; [exact (ds_index_lt st _ _ Hidx Hin)|]. rewrite Hf, Hp. symmetry. apply surjective_pairing.
    + cbn [ds_outs]. rewrite app_length, Nat.add_1_r, nth_middle. split; [lia|]. symmetry. apply surjective_pairing.
Qed.

(* C20_every_history: a history of lookups, one id after the other, keeps the table well formed *)
Fixpoint route (order : list (nat * outp) -> list (nat * outp)) (c : dcfg) (st : dstate) (ids : list str) : dres dstate :=
  match ids with
  | [] => DOk st
  | id :: r => match find_output order c st id with DOk (st', _) => route order c st' r | DErr => DErr end
  end.

Theorem route_wf order c ids : (forall l, Permutation (order l) l) -> forall st st', ds_wf c st -> route order c st ids = DOk st' -> ds_wf c st'.
Proof.
  intros Hord. induction ids as [|id r IH]; intros st st' Hwf H; cbn in H; [inversion H; subst; exact Hwf|].
  destruct (find_output order c st id) as [[st1 i]|] eqn:E; [|discriminate].
  apply (IH st1 st'); [|exact H]. apply (find_output_sound order c st id st1 i Hord Hwf E).
Qed.

(* C20_once: looking an id up again changes nothing and yields the same output: either the table did not change,
   or the id is now registered *)
Lemma find_output_again order c st id st' i :
  find_output order c st id = DOk (st', i) -> find_output order c st' id = DOk (st', i).
Proof.
  intros H. pose proof H as H0. rewrite find_output_eq in H0. destruct (lookup id (ds_ids st)) as [i0|] eqn:EL.
  - injection H0 as <- <-. exact H.
  - apply begin_output_inv in H0. destruct H0 as [[-> _]|(_ & -> & ->)]; [exact H|].
    rewrite find_output_eq. cbn [ds_ids]. rewrite lookup_app, EL, lookup_same. reflexivity.
Qed.
