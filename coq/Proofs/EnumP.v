(* Integer enums (generateEnumType, the "Enforce integer type for enum values" loop after repair d4feaa6): the table built from a list of
   JSON numbers holds an int for every integral member inside the int range and leaves every other number a float64, which no decoded int
   equals.  Hence the values a plain-int carrier accepts are exactly the listed numbers that are equal to it - whatever else the list holds. *)
From GJS Require Import Base Bounds IntSize Schema GoType Gen Exec Valid ValidP ExecP GenP LevelP.
Local Open Scope Q_scope.

Definition json_num_eq (z : Z) (j : json) : bool :=
  match j with JNum n => Qeq_bool (inject_Z z) (nq n) | _ => false end.

(* the [if] below is the table entry [all_numbers_to_int] makes of the number q *)
Lemma int_member z q : in_range KInt z = true ->
  enum_eq (TInt KInt) (GI z) (if Qis_int q && in_range KInt (Qtrunc_z q) then EVInt (Qtrunc_z q) else EVFloat q) = Qeq_bool (inject_Z z) q.
Proof.
  intros Hz. destruct (Qis_int q) eqn:Hi; cbn [andb].
  - apply Qis_int_iff in Hi. destruct Hi as [k Hk].
    rewrite (Qtrunc_z_proper q (inject_Z k) Hk), Qtrunc_inject.
    destruct (in_range KInt k) eqn:Hr; cbn [enum_eq].
    + destruct (Z.eqb_spec z k) as [E|E].
      * subst. symmetry. apply Qeq_bool_iff. symmetry. exact Hk.
      * symmetry. apply not_true_is_false. intros H. apply Qeq_bool_iff in H. apply E. apply inject_Z_injective. rewrite H. exact Hk.
    + symmetry. apply not_true_is_false. intros H. apply Qeq_bool_iff in H.
      assert (z = k) by (apply inject_Z_injective; rewrite H; exact Hk). subst. congruence.
  - cbn [enum_eq]. symmetry. apply not_true_is_false. intros H. apply Qeq_bool_iff in H.
    assert (Qis_int q = true) by (apply Qis_int_iff; exists z; symmetry; exact H). congruence.
Qed.

Theorem int_enum_exact : forall l tbl z, all_numbers_to_int l = Some tbl -> in_range KInt z = true ->
  existsb (enum_eq (TInt KInt) (GI z)) tbl = existsb (json_num_eq z) l.
Proof.
  induction l as [|j r IH]; intros tbl z Ht Hz; cbn [all_numbers_to_int] in Ht.
  - inversion Ht. reflexivity.
  - destruct j; try discriminate Ht.
    destruct (all_numbers_to_int r) as [es|] eqn:Hr; [|discriminate Ht]. inversion Ht; subst.
    cbn [existsb json_num_eq]. rewrite (IH es z eq_refl Hz), (int_member z _ Hz). reflexivity.
Qed.

Lemma int_enum_total l : Forall (fun j => match j with JNum _ => True | _ => False end) l -> exists tbl, all_numbers_to_int l = Some tbl.
Proof.
  induction 1 as [|j r Hj _ [es He]]; [exists []; reflexivity|].
  destruct j; try contradiction. cbn [all_numbers_to_int]. rewrite He. eexists; reflexivity.
Qed.

(* non-vacuity: the list [1, 2.5, 3] - 1 and 3 accepted, 2 (the integer part of 2.5) rejected *)
Example int_enum_inhabited :
  let l := [JNum (mkNum (1 # 1) true); JNum (mkNum (5 # 2) false); JNum (mkNum (3 # 1) true)] in
  exists tbl, all_numbers_to_int l = Some tbl /\
    existsb (json_num_eq 1) l = true /\ existsb (json_num_eq 3) l = true /\ existsb (json_num_eq 2) l = false /\
    is_ok (dec (fun _ _ => true) [] 3 (TEnum [69]%N (TInt KInt) false tbl) (JNum (mkNum (2 # 1) true))) = false /\
    is_ok (dec (fun _ _ => true) [] 3 (TEnum [69]%N (TInt KInt) false tbl) (JNum (mkNum (3 # 1) true))) = true.
Proof. cbn zeta. eexists. split; [reflexivity|]. vm_compute. repeat split; reflexivity. Qed.


Definition is_num (j : json) : Prop := match j with JNum _ => True | _ => False end.
(* {"type": "integer", "enum": [numbers...]} with no other keyword *)
Definition int_enum_leaf (p : schema) : Prop :=
  exists c l, p = Sch c [] None false None [] [] /\ c_types c = [SInteger] /\ c_ref c = None /\ c_enum c = Some l /\ l <> [] /\ Forall is_num l /\
              c_default c = None /\ c_format c = None /\ has_bound_kw (c_mult c) (c_bounds c) = false.

Section IntEnum.
Variable idf : str -> str.
Variable cf : cfg.
Variable defs : list (str * schema).
Variable fmt_ok : fmtk -> str -> bool.
Variable env : list (str * gty).
Variable sdefs : list (str * schema).
Hypothesis Hms : g_minsized cf = false.
Notation gen := (Gen.gen idf cf defs).
Notation dec := (Exec.dec fmt_ok env).
Notation valid := (Valid.valid fmt_ok sdefs).

Lemma gen_int_enum_leaf f self sc p ty bp : int_enum_leaf p -> gen (S f) MInline self false p sc = Done (ty, bp) ->
  exists l tbl, ty = TEnum sc (TInt KInt) false tbl /\ bp = c_bounds (s_con p) /\ c_enum (s_con p) = Some l /\ all_numbers_to_int l = Some tbl.
Proof.
  intros (c & l & -> & Ht & Hr & He & Hne & Hnum & Hd & Hf & Hb) H. exists l. cbn [s_con].
  destruct l as [|v0 vr]; [contradiction Hne; reflexivity|].
  rewrite gen_inline_enum_typed with (t := SInteger) (v := v0) (vs := vr) in H by assumption.
  destruct f as [|[|f]]; try discriminate H.
  unfold enum_typed, primitive, primitive_int in H. rewrite Hms in H. cbn [rbind wrap_ptr] in H.
  destruct (all_numbers_to_int (v0 :: vr)) as [tbl|] eqn:E; [|discriminate H]. inversion H. exists tbl. split; [reflexivity|]. split; [reflexivity|]. split; [exact He|reflexivity].
Qed.

Lemma existsb_json_nums z n l : nq n == inject_Z z -> existsb (json_eqb (JNum n)) l = existsb (json_num_eq z) l.
Proof.
  intros Hq. induction l as [|j r IH]; [reflexivity|]. cbn [existsb]. rewrite IH. f_equal.
  destruct j; cbn [json_eqb json_num_eq]; try reflexivity.
  destruct (Qeq_bool (nq n) (nq n0)) eqn:E1, (Qeq_bool (inject_Z z) (nq n0)) eqn:E2; try reflexivity.
  - apply Qeq_bool_iff in E1. assert (Qeq_bool (inject_Z z) (nq n0) = true) by (apply Qeq_bool_iff; rewrite <- Hq; exact E1). congruence.
  - apply Qeq_bool_iff in E2. assert (Qeq_bool (nq n) (nq n0) = true) by (apply Qeq_bool_iff; rewrite Hq; exact E2). congruence.
Qed.

Lemma valid_int_enum_leaf fv p x l : int_enum_leaf p -> c_enum (s_con p) = Some l ->
  valid (S fv) p x = match x with JNum n => Qis_int (nq n) && existsb (json_eqb x) l | _ => false end.
Proof.
  intros (c & l0 & -> & Ht & Hr & He0 & Hne & Hnum & Hd & Hf & Hb) He. cbn [s_con] in He.
  rewrite (valid_typed fmt_ok sdefs fv c _ _ _ _ SInteger x Hr Ht), He.
  destruct x; try reflexivity. cbn [type_matches keywords s_con]. rewrite (no_bound_kw _ _ (nq n) Hb). apply andb_true_r.
Qed.

(* accepted iff valid: every generated integer-enum type, every list of numbers (fractions included), every number document written as an
   integer literal inside Go's int (the guard of C02/C05 for integers: D12), and every document of another JSON type except null *)
Theorem int_enum_generated_exact : forall f fd fv self sc p ty bp x,
  int_enum_leaf p -> gen (S f) MInline self false p sc = Done (ty, bp) -> int_value x ->
  is_ok (dec (S (S fd)) ty x) = valid (S fv) p x.
Proof.
  intros f fd fv self sc p ty bp x Hleaf Hgen [Hnull Hint].
  destruct (gen_int_enum_leaf f self sc p ty bp Hleaf Hgen) as (l & tbl & -> & _ & He & Ht).
  rewrite (valid_int_enum_leaf fv p x l Hleaf He).
  destruct x; try (cbn [Exec.dec obind is_ok]; reflexivity); [contradiction Hnull; reflexivity|].
  destruct (Hint n eq_refl) as [z [-> Hr]]. cbn [nq].
  rewrite Qis_int_inject, (existsb_json_nums z (mkNum (inject_Z z) true) l (Qeq_refl _)). change (JNum (mkNum (inject_Z z) true)) with (JInt z).
  rewrite (enum_exact fmt_ok env (S fd) sc _ _ _ (existsb (json_num_eq z) l)), (dec_int_lossless fmt_ok env fd KInt z Hr); [reflexivity|].
  intros v Hd. rewrite (dec_int_lossless fmt_ok env fd KInt z Hr) in Hd. injection Hd as <-. exact (int_enum_exact l tbl z Ht Hr).
Qed.

Lemma int_enum_leaf_exact f g fv self sc fname k p ty bp x : int_enum_leaf p -> gen (S f) MInline self false p sc = Done (ty, bp) -> int_value x ->
  accepts fmt_ok env fname k p bp (S (S g)) ty x = valid (S fv) p x.
Proof.
  intros Hl Hgen Hx. rewrite <- (int_enum_generated_exact f g fv self sc p ty bp x Hl Hgen Hx).
  destruct (gen_int_enum_leaf f self sc p ty bp Hl Hgen) as (l & tbl & -> & _). apply accepts_plain. reflexivity.
Qed.

End IntEnum.

(* non-vacuity of [int_enum_generated_exact]: {"type": "integer", "enum": [1, 2.5, 3]} is such a leaf, the generator declares a type for it,
   and the documents 1, 2, 3, "1" meet the document guard (2 - the integer part of 2.5 - is invalid and rejected) *)
Definition ex_int_enum : schema :=
  Sch (mkC [SInteger] None (Some [JNum (mkNum (1 # 1) true); JNum (mkNum (5 # 2) false); JNum (mkNum (3 # 1) true)]) [] 0 0 0 0 None None (mkBounds None None None None) None None)
      [] None false None [] [].
Example int_enum_generated_inhabited :
  int_enum_leaf ex_int_enum /\
  exists ty b, Gen.gen (fun s => s) (mkCfg false false) [] 5 MInline None false ex_int_enum [69]%N = Done (ty, b) /\
    map (fun x => (is_ok (Exec.dec (fun _ _ => true) [] 4 ty x), Valid.valid (fun _ _ => true) [] 3 ex_int_enum x))
        [JInt 1; JInt 2; JInt 3; JStr [49]%N] = [(true, true); (false, false); (true, true); (false, false)] /\
    Forall int_value [JInt 1; JInt 2; JInt 3; JStr [49]%N].
Proof.
  split.
  - eexists. eexists. repeat split; try reflexivity; try discriminate. repeat constructor.
  - eexists. eexists. split; [vm_compute; reflexivity|]. split; [vm_compute; reflexivity|].
    repeat constructor; try discriminate; intros n E; inversion E; subst; eexists; split; reflexivity.
Qed.
