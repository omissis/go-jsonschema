(* The static plan tie compares, per emitted method, the lines [Render.plan_lines] gives the model's validator list with the same lines
   read off the emitted text.  Those lines are a rendering of [Render.vsig_of].  Here: the behaviour of every check is a function of
   that signature and of the residue the lines leave out (the default literal, the text of the pattern, the branch types of an anyOf,
   which other parts of the tie compare: decoded values, verdicts, declarations). *)
From GJS Require Import Base Bounds Regex Schema GoType Render Exec ExecP.
Open Scope Q_scope.

Definition residue (v : validator) : option (gty * json) * option pat * list gty :=
  match v with
  | VDefault _ _ ty dv => (Some (ty, dv), None, [])
  | VString _ _ _ _ _ p => (None, p, [])
  | VAnyOf bs => (None, None, bs)
  | _ => (None, None, [])
  end.

Definition accept_sig (rnd : bool) (m : option Q) (up lo : option Q * bool) (x : Q) : bool :=
  accept_multiple rnd m x && accept_upper up x && accept_lower lo x.

Lemma accept_multiple_value_of rnd m x : accept_multiple rnd (option_map (value_of rnd) m) x = accept_multiple rnd m x.
Proof.
  destruct m as [q|]; [|reflexivity]. destruct rnd; cbn [option_map value_of accept_multiple]; [|reflexivity].
  rewrite Qtrunc_inject. reflexivity.
Qed.

Lemma accept_numeric_sig rnd m b x :
  accept_numeric rnd m b x =
  accept_sig rnd (option_map (value_of rnd) m) (trunc_opt rnd (norm_max (b_max b) (b_exmax b))) (trunc_opt rnd (norm_min (b_min b) (b_exmin b))) x.
Proof. unfold accept_numeric, accept_sig. rewrite accept_multiple_value_of. reflexivity. Qed.

Definition same_plan (v1 v2 : validator) : Prop := vsig_of v1 = vsig_of v2 /\ residue v1 = residue v2.

Section Plan.
Variable decf : gty -> json -> outcome gval.
Variable zf : gty -> gval.
Variable dvf : gty -> json -> option gval.

Lemma same_plan_after raw st v1 v2 : same_plan v1 v2 -> after_step dvf raw st v1 = after_step dvf raw st v2.
Proof.
  intros [Hs Hr].
  destruct v1, v2; cbn [vsig_of] in Hs; try discriminate Hs; cbn [residue] in Hr.
  - (* required *) reflexivity.
  - (* null *) inversion Hs; subst. reflexivity.
  - (* default *) inversion Hs; inversion Hr; subst. reflexivity.
  - (* array *) inversion Hs; subst. reflexivity.
  - (* string *) inversion Hs; inversion Hr; subst. reflexivity.
  - (* numeric: the signature keeps of bounds and multiple what [accept_numeric] looks at *)
    assert (Hf : fname = fname0 /\ nillable = nillable0 /\ round_to_int = round_to_int0) by (repeat split; congruence).
    destruct Hf as (-> & -> & ->).
    assert (E : forall x, accept_numeric round_to_int0 mult b x = accept_numeric round_to_int0 mult0 b0 x)
      by (intros x; rewrite !accept_numeric_sig; congruence).
    cbn [after_step]. destruct (get_plain fname0 st) as [g|]; [|reflexivity].
    destruct nillable0, g as [| | |z|q| |y| | | |]; try reflexivity; cbn [num_of].
    + (* nillable, GP *) destruct (num_of y); [rewrite E|]; reflexivity.
    + (* GI *) rewrite E. reflexivity.
    + (* GF *) rewrite E. reflexivity.
  - (* anyOf *) reflexivity.
Qed.

Lemma same_plan_before raw j v1 v2 : same_plan v1 v2 -> before_step decf raw j v1 = before_step decf raw j v2.
Proof.
  intros [Hs Hr].
  destruct v1, v2; cbn [vsig_of] in Hs; try discriminate Hs; cbn [residue] in Hr; try reflexivity.
  - (* required *) inversion Hs; subst. reflexivity.
  - (* anyOf *) inversion Hr; subst. reflexivity.
Qed.

Lemma same_plan_flags v1 v2 : same_plan v1 v2 -> v_before v1 = v_before v2 /\ v_raw_after v1 = v_raw_after v2.
Proof. intros [Hs _]. destruct v1, v2; cbn [vsig_of] in Hs; try discriminate Hs; split; reflexivity. Qed.

Theorem plan_determines_method fs under vs1 vs2 j :
  Forall2 same_plan vs1 vs2 -> run_method decf zf dvf fs under vs1 j = run_method decf zf dvf fs under vs2 j.
Proof.
  apply run_method_congr; [reflexivity|]. intros v1 v2 Hv.
  destruct (same_plan_flags v1 v2 Hv) as [Hb Ha]. repeat split; [exact Hb|exact Ha| |]; intros.
  - apply same_plan_before, Hv.
  - apply same_plan_after, Hv.
Qed.

Lemma same_plan_lines fs vs1 vs2 : Forall2 same_plan vs1 vs2 -> plan_lines fs vs1 = plan_lines fs vs2.
Proof.
  intros H. unfold plan_lines.
  rewrite (existsb_Forall2 _ v_before v_before vs1 vs2 H), (existsb_Forall2 _ v_raw_after v_raw_after vs1 vs2 H)
    by (intros a b _ Hab; apply (same_plan_flags a b Hab)).
  assert (Hf : forall (p : validator -> bool), (forall a b, same_plan a b -> p a = p b) ->
            flat_map vline (filter p vs1) = flat_map vline (filter p vs2)).
  { intros p Hp. induction H as [|a b l1 l2 Hab _ IH]; [reflexivity|]. cbn [filter]. rewrite (Hp a b Hab).
    destruct (p b); cbn [flat_map]; rewrite IH; [|reflexivity]. unfold vline. destruct Hab as [Hs _]. rewrite Hs. reflexivity. }
  rewrite (Hf v_before), (Hf (fun v => negb (v_before v))); try reflexivity.
  - intros a b Hab. f_equal. apply (same_plan_flags a b Hab).
  - intros a b Hab. apply (same_plan_flags a b Hab).
Qed.
End Plan.

(* non-vacuity: two different validators (a draft-4 and a draft-6 spelling of one exclusive bound on the same field and key) with one plan *)
Example plan_inhabited :
  let v1 := VNumeric [78%N] [110%N] false false None (mkBounds (Some (3 # 1)) None (Some (ExBool true)) None) in
  let v2 := VNumeric [78%N] [110%N] false false None (mkBounds None None (Some (ExNum (3 # 1))) None) in
  v1 <> v2 /\ same_plan v1 v2.
Proof. cbn zeta. split; [discriminate|]. split; reflexivity. Qed.
