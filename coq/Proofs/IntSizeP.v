(* Proofs about --min-sized-ints (Model/IntSize.v) for integral bounds.  On such bounds
   getMinIntType is [mit_z (lo_of zb) (hi_of zb)] (mit_bridge): the kind comes from the cascade
   [kind_z] over the tightest integer bounds; the lower bound is dropped exactly when it equals
   the chosen kind's own minimum, the upper one exactly at [float_max k]: the kind's maximum, or one above it at
   64 bits (2^63, 2^64), where a bound at the maximum itself is kept.  Removal is then sound for any kind (drop_min_sound,
   drop_max_sound) with no case on the cascade; the lemmas that walk it say [cascade]. *)
From GJS Require Import Base Bounds NumericP IntSize.

Inductive zex := ZExBool (b : bool) | ZExNum (z : Z).
Record zbounds := mkZB { z_min : option Z; z_max : option Z; z_exmin : option zex; z_exmax : option zex }.
Definition ex_of (e : zex) : exb := match e with ZExBool b => ExBool b | ZExNum z => ExNum (inject_Z z) end.
Definition to_bounds (zb : zbounds) : bounds :=
  mkBounds (option_map inject_Z (z_min zb)) (option_map inject_Z (z_max zb))
           (option_map ex_of (z_exmin zb)) (option_map ex_of (z_exmax zb)).

(* the tightest inclusive integer bounds the keywords state *)
Definition z_lower (m : option Z) (e : option zex) : option Z :=
  match m, e with
  | None, None | None, Some (ZExBool _) => None
  | Some a, None | Some a, Some (ZExBool false) => Some a
  | Some a, Some (ZExBool true) => Some (a + 1)%Z
  | None, Some (ZExNum v) => Some (v + 1)%Z
  | Some a, Some (ZExNum v) => Some (Z.max a (v + 1))
  end.
Definition z_upper (m : option Z) (e : option zex) : option Z :=
  match m, e with
  | None, None | None, Some (ZExBool _) => None
  | Some a, None | Some a, Some (ZExBool false) => Some a
  | Some a, Some (ZExBool true) => Some (a - 1)%Z
  | None, Some (ZExNum v) => Some (v - 1)%Z
  | Some a, Some (ZExNum v) => Some (Z.min a (v - 1))
  end.
Definition lo_of (zb : zbounds) := z_lower (z_min zb) (z_exmin zb).
Definition hi_of (zb : zbounds) := z_upper (z_max zb) (z_exmax zb).

Definition ge_opt (l : option Z) (x : Z) : bool := match l with Some a => (a <=? x)%Z | None => true end.
Definition le_opt (h : option Z) (x : Z) : bool := match h with Some a => (x <=? a)%Z | None => true end.

Lemma ge_opt_iff o x : ge_opt o x = true <-> forall l, o = Some l -> (l <= x)%Z.
Proof.
  destruct o as [a|]; cbn; [rewrite Z.leb_le|]; split; intros H; try reflexivity.
  - intros l [= <-]. exact H.
  - exact (H a eq_refl).
  - intros l [=].
Qed.
Lemma le_opt_iff o x : le_opt o x = true <-> forall h, o = Some h -> (x <= h)%Z.
Proof.
  destruct o as [a|]; cbn; [rewrite Z.leb_le|]; split; intros H; try reflexivity.
  - intros h [= <-]. exact H.
  - exact (H a eq_refl).
  - intros h [=].
Qed.

Lemma inject_plus1 v : (inject_Z v + 1 == inject_Z (v + 1))%Q.
Proof. rewrite inject_Z_plus. reflexivity. Qed.
Lemma inject_minus1 v : (inject_Z v - 1 == inject_Z (v - 1))%Q.
Proof. unfold Qminus. change (- (1))%Q with (inject_Z (-1)). rewrite <- inject_Z_plus. reflexivity. Qed.

(* the three tests getMinIntType applies to a bound see only the integer it denotes *)
Lemma Qround_z_int q z : (q == inject_Z z)%Q -> Qround_z q = z.
Proof.
  (* q = z*d/d, so floor (q + 1/2) = (d + z * 2d) / 2d = z by Z.div_add, the remainder d being below 2d; likewise for -q *)
  destruct q as [n d]. unfold Qeq, inject_Z; cbn [Qnum Qden]. intros H.
  assert (Hn : n = (z * Z.pos d)%Z) by lia. subst n. clear H.
  unfold Qround_z, Qle_bool, Qfloor_z, Qplus, Qopp; cbn [Qnum Qden].
  destruct (Z.leb_spec (0 * Z.pos d) (z * Z.pos d * 1)) as [H0|H0].
  - replace (z * Z.pos d * Z.pos 2 + 1 * Z.pos d)%Z with (Z.pos d + z * (Z.pos (d * 2)))%Z by lia.
    rewrite Z.div_add by lia. rewrite Z.div_small by lia. lia.
  - replace (- (z * Z.pos d) * Z.pos 2 + 1 * Z.pos d)%Z with (Z.pos d + (- z) * (Z.pos (d * 2)))%Z by lia.
    rewrite Z.div_add by lia. rewrite Z.div_small by lia. lia.
Qed.
Lemma Qle_bool_0_int q z : (q == inject_Z z)%Q -> Qle_bool 0 q = (0 <=? z)%Z.
Proof. intros ->. apply (Qle_bool_inject 0). Qed.
Lemma Qeq_bool_0_int q z : (q == inject_Z z)%Q -> Qeq_bool q 0 = zeq z 0.
Proof. intros ->. apply Qeq_bool_inject_0. Qed.

Definition oq_is (o : option Q) (z : option Z) : Prop :=
  match o, z with
  | None, None => True
  | Some q, Some a => (q == inject_Z a)%Q
  | _, _ => False
  end.

(* the adjusted lower bound getMinIntType computes denotes z_lower *)
Lemma lower_bridge m e :
  let '(mn, emn) := norm_min (option_map inject_Z m) (option_map ex_of e) in
  oq_is (if emn then option_map (fun v => Qplus v 1) mn else mn) (z_lower m e).
Proof.
  unfold norm_min, norm_side, Qgeb.
  destruct m as [a|]; destruct e as [[[|]|v]|]; cbn [option_map ex_of z_lower oq_is].
  all: try reflexivity; try apply inject_plus1; try exact I.
  rewrite Qle_bool_inject. destruct (Z.leb_spec a v); cbn [oq_is option_map].
  - rewrite inject_plus1. replace (Z.max a (v + 1)) with (v + 1)%Z by lia. reflexivity.
  - replace (Z.max a (v + 1)) with a by lia. reflexivity.
Qed.

Lemma upper_bridge m e :
  let '(mx, emx) := norm_max (option_map inject_Z m) (option_map ex_of e) in
  oq_is (if emx then option_map (fun v => Qminus v 1) mx else mx) (z_upper m e).
Proof.
  unfold norm_max, norm_side.
  destruct m as [a|]; destruct e as [[[|]|v]|]; cbn [option_map ex_of z_upper oq_is].
  all: try reflexivity; try apply inject_minus1; try exact I.
  rewrite Qle_bool_inject. destruct (Z.leb_spec v a); cbn [oq_is option_map].
  - rewrite inject_minus1. replace (Z.min a (v - 1)) with (v - 1)%Z by lia. reflexivity.
  - replace (Z.min a (v - 1)) with a by lia. reflexivity.
Qed.

Lemma in_range_iff k x : in_range k x = true <-> (fst (int_range k) <= x <= snd (int_range k))%Z.
Proof. unfold in_range. destruct (int_range k). rewrite andb_true_iff, !Z.leb_le. reflexivity. Qed.

(* the kind: the model's two cascades, on integers *)
Definition kind_z (lo hi : option Z) : intk :=
  match lo, hi with
  | Some l, Some h =>
      if (0 <=? l)%Z then
        if (2 ^ 32 - 1 <? h)%Z then KU64 else if (2 ^ 16 - 1 <? h)%Z then KU32
        else if (2 ^ 8 - 1 <? h)%Z then KU16 else KU8
      else
        if (l <? - 2 ^ 31)%Z || (2 ^ 31 - 1 <? h)%Z then KI64
        else if (l <? - 2 ^ 15)%Z || (2 ^ 15 - 1 <? h)%Z then KI32
        else if (l <? - 2 ^ 7)%Z || (2 ^ 7 - 1 <? h)%Z then KI16 else KI8
  | Some l, None => if (0 <=? l)%Z then KU64 else KI64
  | None, _ => KI64
  end.

(* the flags: in every branch of the model a bound is dropped exactly when it equals the
   chosen type's own limit as a float64; float64(MaxInt64) and float64(MaxUint64) are one
   above the limit *)
Definition float_max (k : intk) : Z :=
  let m := snd (int_range k) in if Nat.eqb (int_width k) 64 then (m + 1)%Z else m.
Definition eq_opt (o : option Z) (c : Z) : bool := match o with Some a => zeq a c | None => false end.

Definition mit_z (lo hi : option Z) : intk * bool * bool :=
  let k := kind_z lo hi in (k, eq_opt lo (fst (int_range k)), eq_opt hi (float_max k)).

Ltac cascade := repeat match goal with |- context [if ?c then _ else _] => destruct c eqn:? end.

Lemma kind_z_signed lo hi : int_signed (kind_z lo hi) = match lo with Some l => negb (0 <=? l)%Z | None => true end.
Proof. unfold kind_z. destruct lo as [l|], hi as [h|]; cascade; reflexivity. Qed.

Lemma decision_bridge mn mx lo hi : oq_is mn lo -> oq_is mx hi ->
  match mn with
  | Some m => if Qle_bool 0 m then unsigned_type mn mx else signed_type mn mx
  | None => signed_type mn mx
  end = mit_z lo hi.
Proof.
  unfold oq_is, signed_type, unsigned_type, mit_z, kind_z.
  destruct mn as [a|], lo as [l|]; try contradiction; destruct mx as [b|], hi as [h|]; try contradiction; intros H1 H2.
  all: rewrite ?(Qle_bool_0_int _ _ H1), ?(Qeq_bool_0_int _ _ H1), ?(Qround_z_int _ _ H1), ?(Qround_z_int _ _ H2).
  all: cascade; reflexivity.
Qed.

Lemma mit_bridge zb : min_int_type (to_bounds zb) = mit_z (lo_of zb) (hi_of zb).
Proof.
  unfold min_int_type, normalize_bounds, to_bounds, lo_of, hi_of; cbn [b_min b_max b_exmin b_exmax].
  pose proof (lower_bridge (z_min zb) (z_exmin zb)) as HL.
  pose proof (upper_bridge (z_max zb) (z_exmax zb)) as HU.
  destruct (norm_min _ _) as [mn emn]. destruct (norm_max _ _) as [mx emx].
  apply decision_bridge; assumption.
Qed.

Lemma drop_min_sound lo k x :
  eq_opt lo (fst (int_range k)) = true -> in_range k x = true -> ge_opt lo x = true.
Proof.
  destruct lo as [l|]; [|discriminate]. intros E HI. apply Z.eqb_eq in E. subst l.
  apply Z.leb_le, in_range_iff, HI.
Qed.
Lemma drop_max_sound hi k x :
  eq_opt hi (float_max k) = true -> in_range k x = true -> le_opt hi x = true.
Proof.
  destruct hi as [h|]; [|discriminate]. intros E HI. apply Z.eqb_eq in E. subst h.
  apply in_range_iff in HI. apply Z.leb_le. unfold float_max. destruct (Nat.eqb _ _); lia.
Qed.

Lemma kind_z_range lo hi x :
  in_range KInt x = true -> ge_opt lo x = true -> le_opt hi x = true -> in_range (kind_z lo hi) x = true.
Proof.
  rewrite !in_range_iff. unfold ge_opt, le_opt, kind_z. intros HI HL HH.
  destruct lo as [l|], hi as [h|]; cascade; cbn [int_range fst snd] in *; lia.
Qed.

Definition fits (k : intk) (l h : Z) : bool := in_range k l && in_range k h.

Lemma fits_iff k l h : (l <= h)%Z ->
  fits k l h = true <-> (fst (int_range k) <= l /\ h <= snd (int_range k))%Z.
Proof. intros Hlh. unfold fits. rewrite andb_true_iff, !in_range_iff. lia. Qed.

Lemma kind_z_mono l h l' h' : (0 <=? l')%Z = (0 <=? l)%Z -> (l' <= l)%Z -> (h <= h')%Z ->
  int_width (kind_z (Some l) (Some h)) <= int_width (kind_z (Some l') (Some h')).
Proof. unfold kind_z. intros -> Hl Hh. cascade; cbn [int_width]; lia. Qed.

(* on the range of a kind (read from 0 when the interval is non-negative) the width chosen is at most that kind's width:
   a table over the nine kinds, each row by evaluation, with the 64-bit limits every range keeps *)
Lemma kind_z_width_on_range k : let '(a, b) := int_range k in
  (- 2 ^ 63 <= a <= 0 /\ b <= 2 ^ 64 - 1 /\ (a < 0 -> b <= 2 ^ 63 - 1))%Z /\
  int_width (kind_z (Some a) (Some b)) <= int_width k /\ int_width (kind_z (Some 0%Z) (Some b)) <= int_width k.
Proof.
  destruct k; vm_compute; repeat split.
  (* evaluated, a Z comparison is a disequation between constructors of [comparison]: discriminate; a nat [<=]: constructors *)
  all: try discriminate; repeat constructor.
Qed.

(* the chosen type fits a two-sided interval whenever any sized type does, and no sized type that fits is narrower.
   [l <= h] is needed: [kind_z (Some 300) (Some 3) = KU8] does not fit 300 *)
Lemma kind_z_narrowest l h k' : (l <= h)%Z -> fits k' l h = true ->
  let k := kind_z (Some l) (Some h) in
  fits k l h = true /\ int_width k <= int_width k' /\ int_signed k = negb (0 <=? l)%Z.
Proof.
  intros Hlh Hk'. cbv zeta. rewrite fits_iff in * by exact Hlh.
  pose proof (kind_z_width_on_range k') as Ho. destruct (int_range k') as [a b]. cbn [fst snd] in Hk'.
  destruct Hk' as [Ha Hb], Ho as (Hab & Ho1 & Ho2). split; [|split].
  - (* the last branch of each cascade is a 64-bit kind whatever the bounds, so that it fits needs the 64-bit
       limits on [l] and [h]: only [k'] supplies them, through [Hab] *)
    unfold kind_z. cascade; cbn [int_range fst snd]; lia.
  - destruct (0 <=? l)%Z eqn:E.
    + etransitivity; [|exact Ho2]. apply kind_z_mono; [rewrite E; reflexivity|lia|exact Hb].
    + etransitivity; [|exact Ho1]. apply kind_z_mono; [|exact Ha|exact Hb]. rewrite E. lia.
  - apply (kind_z_signed (Some l) (Some h)).
Qed.

Lemma opt_integral_inject o : opt_integral (option_map inject_Z o).
Proof. intros q H. destruct o as [a|]; inversion H. exists a. reflexivity. Qed.
Lemma exb_integral_ex_of e : exb_integral (option_map ex_of e).
Proof. intros q H. destruct e as [[|v]|]; inversion H. exists v. reflexivity. Qed.
Lemma zbounds_integral zb : bounds_integral (to_bounds zb).
Proof.
  exact (conj (opt_integral_inject _) (conj (opt_integral_inject _)
        (conj (exb_integral_ex_of _) (exb_integral_ex_of _)))).
Qed.

Lemma spec_lower_z m e x :
  spec_lower (option_map inject_Z m) (option_map ex_of e) (inject_Z x) = ge_opt (z_lower m e) x.
Proof.
  unfold spec_lower, ge_opt. destruct m as [a|]; destruct e as [[[|]|v]|]; cbn [option_map ex_of z_lower];
    rewrite ?Qle_bool_inject, ?Qltb_inject, ?andb_true_r; try reflexivity.
  (* left: the three cases with an exclusive bound, strict on one side and shifted by one on the other *)
  all: apply eq_true_iff_eq; rewrite ?andb_true_iff, ?Z.leb_le, ?Z.ltb_lt; lia.
Qed.
Lemma spec_upper_z m e x :
  spec_upper (option_map inject_Z m) (option_map ex_of e) (inject_Z x) = le_opt (z_upper m e) x.
Proof.
  unfold spec_upper, le_opt. destruct m as [a|]; destruct e as [[[|]|v]|]; cbn [option_map ex_of z_upper];
    rewrite ?Qle_bool_inject, ?Qltb_inject, ?andb_true_r; try reflexivity.
  (* left: the three cases with an exclusive bound, strict on one side and shifted by one on the other *)
  all: apply eq_true_iff_eq; rewrite ?andb_true_iff, ?Z.leb_le, ?Z.ltb_lt; lia.
Qed.

Lemma spec_bounds_z zb x : spec_bounds (to_bounds zb) (inject_Z x) = ge_opt (lo_of zb) x && le_opt (hi_of zb) x.
Proof. unfold spec_bounds, to_bounds; cbn [b_min b_max b_exmin b_exmax]. rewrite spec_lower_z, spec_upper_z. reflexivity. Qed.

Lemma accept_numeric_z (mult : option Z) zb x :
  (forall m, mult = Some m -> m <> 0%Z) ->
  accept_numeric true (option_map inject_Z mult) (to_bounds zb) (inject_Z x)
  = spec_multiple (option_map inject_Z mult) (inject_Z x) && (ge_opt (lo_of zb) x && le_opt (hi_of zb) x).
Proof.
  intros Hnz. rewrite numeric_int_exact by (auto using zbounds_integral).
  unfold spec_numeric. rewrite spec_bounds_z. reflexivity.
Qed.

Definition zclear (zb : zbounds) (rmin rmax : bool) : zbounds :=
  mkZB (if rmin then None else z_min zb) (if rmax then None else z_max zb)
       (if rmin then None else z_exmin zb) (if rmax then None else z_exmax zb).
Lemma clear_bridge zb rmin rmax : clear_bounds (to_bounds zb) rmin rmax = to_bounds (zclear zb rmin rmax).
Proof. destruct rmin, rmax; reflexivity. Qed.
Lemma lo_of_zclear zb rmin rmax : lo_of (zclear zb rmin rmax) = if rmin then None else lo_of zb.
Proof. destruct rmin; reflexivity. Qed.
Lemma hi_of_zclear zb rmin rmax : hi_of (zclear zb rmin rmax) = if rmax then None else hi_of zb.
Proof. destruct rmax; reflexivity. Qed.

Lemma mit_z_same lo hi k rmin rmax x :
  mit_z lo hi = (k, rmin, rmax) -> in_range KInt x = true ->
  in_range k x && (ge_opt (if rmin then None else lo) x && le_opt (if rmax then None else hi) x)
  = ge_opt lo x && le_opt hi x.
Proof.
  intros [= <- Emin Emax] HI. apply eq_true_iff_eq. rewrite !andb_true_iff. split.
  - intros (Hk & Hl & Hh). split.
    + destruct rmin; [exact (drop_min_sound _ _ _ Emin Hk) | exact Hl].
    + destruct rmax; [exact (drop_max_sound _ _ _ Emax Hk) | exact Hh].
  - intros (Hl & Hh). split; [exact (kind_z_range _ _ _ HI Hl Hh)|].
    split; [destruct rmin | destruct rmax]; trivial.
Qed.

(* --min-sized-ints never changes which integers are accepted *)
Theorem min_sized_same_accepts (mult : option Z) zb x :
  (forall m, mult = Some m -> m <> 0%Z) -> in_range KInt x = true ->
  accept_flag true (option_map inject_Z mult) (to_bounds zb) x
  = accept_flag false (option_map inject_Z mult) (to_bounds zb) x.
Proof.
  intros Hnz HI. unfold accept_flag, primitive_int, accept_int_field.
  rewrite mit_bridge. destruct (mit_z (lo_of zb) (hi_of zb)) as [[k rmin] rmax] eqn:E.
  rewrite clear_bridge, !accept_numeric_z, lo_of_zclear, hi_of_zclear, HI by exact Hnz.
  rewrite <- (mit_z_same _ _ _ _ _ x E HI). cbn [andb].
  destruct (spec_multiple _ _), (in_range k x); reflexivity.
Qed.

(* D27: with only a non-negative minimum the flag selects uint64, which accepts 2^63 .. 2^64-1 where plain int rejects them;
   hence the guard [in_range KInt x] above *)
Lemma min_sized_refuted_beyond_int :
  exists zb x, accept_flag true None (to_bounds zb) x = true /\ accept_flag false None (to_bounds zb) x = false.
Proof. exists (mkZB (Some 0%Z) None None None), (2 ^ 63)%Z. vm_compute. split; reflexivity. Qed.

(* C15_range, C15_removal_min / _max, C15_narrowest: the same facts about getMinIntType on the schema's own bounds *)
Theorem min_sized_range zb k rmin rmax x :
  min_int_type (to_bounds zb) = (k, rmin, rmax) -> in_range KInt x = true ->
  spec_bounds (to_bounds zb) (inject_Z x) = true -> in_range k x = true.
Proof.
  rewrite mit_bridge, spec_bounds_z, andb_true_iff. intros [= <- _ _] HI [HL HU]. exact (kind_z_range _ _ _ HI HL HU).
Qed.

Theorem min_sized_removal_min zb k rmax x :
  min_int_type (to_bounds zb) = (k, true, rmax) -> in_range k x = true ->
  spec_lower (b_min (to_bounds zb)) (b_exmin (to_bounds zb)) (inject_Z x) = true.
Proof.
  rewrite mit_bridge. cbn [to_bounds b_min b_exmin]. rewrite spec_lower_z. intros [= <- E _]. exact (drop_min_sound _ _ _ E).
Qed.

Theorem min_sized_removal_max zb k rmin x :
  min_int_type (to_bounds zb) = (k, rmin, true) -> in_range k x = true ->
  spec_upper (b_max (to_bounds zb)) (b_exmax (to_bounds zb)) (inject_Z x) = true.
Proof.
  rewrite mit_bridge. cbn [to_bounds b_max b_exmax]. rewrite spec_upper_z. intros [= <- _ E]. exact (drop_max_sound _ _ _ E).
Qed.

Theorem min_sized_narrowest zb l h k rmin rmax k' :
  lo_of zb = Some l -> hi_of zb = Some h -> (l <= h)%Z ->
  min_int_type (to_bounds zb) = (k, rmin, rmax) -> fits k' l h = true ->
  fits k l h = true /\ int_width k <= int_width k' /\ int_signed k = negb (0 <=? l)%Z.
Proof. rewrite mit_bridge. intros El Eh Hlh [= <- _ _]. rewrite El, Eh. exact (kind_z_narrowest _ _ _ Hlh). Qed.

(* lo_of / hi_of mean what the keywords say *)
Theorem lo_hi_spec zb x :
  spec_bounds (to_bounds zb) (inject_Z x) = true <->
  (forall l, lo_of zb = Some l -> (l <= x)%Z) /\ (forall h, hi_of zb = Some h -> (x <= h)%Z).
Proof. rewrite spec_bounds_z, andb_true_iff, ge_opt_iff, le_opt_iff. reflexivity. Qed.
