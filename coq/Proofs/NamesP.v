(* Field names: identifiers free of '_' get distinct names from the uniqueNames table of addStructField
   (schema_generator.go), because "name_k" then determines name and k.  Identifierize emits no '_' (a separator
   to it), so sibling properties inside the character guard get distinct field names; a name given by
   goJSONSchema.identifier is outside the statement.
   Type names: uniqueTypeName never returns the name of a completed declaration (output.go:53-72). *)
From GJS Require Import Base Ident IdentP.

Definition no_us (s : str) : Prop := ~ In c_underscore s.

(* the digits can be read back, so the rendering is injective *)
Fixpoint read_uint (s : str) : Decimal.uint :=
  match s with
  | [] => Decimal.Nil
  | c :: r =>
      let u := read_uint r in
      match c with
      | 48 => Decimal.D0 u | 49 => Decimal.D1 u | 50 => Decimal.D2 u | 51 => Decimal.D3 u | 52 => Decimal.D4 u
      | 53 => Decimal.D5 u | 54 => Decimal.D6 u | 55 => Decimal.D7 u | 56 => Decimal.D8 u | 57 => Decimal.D9 u
      | _ => Decimal.Nil
      end%N
  end.
Lemma read_uint_chars u : read_uint (uint_chars u) = u.
Proof. induction u; cbn; rewrite ?IHu; reflexivity. Qed.

Lemma uint_chars_inj u v : uint_chars u = uint_chars v -> u = v.
Proof. intros H. rewrite <- (read_uint_chars u), H. apply read_uint_chars. Qed.

Lemma show_nat_inj n m : show_nat n = show_nat m -> n = m.
Proof.
  unfold show_nat. intros H. apply uint_chars_inj in H.
  rewrite <- (DecimalNat.Unsigned.of_to n), <- (DecimalNat.Unsigned.of_to m), H. reflexivity.
Qed.

Lemma app_sep_inj {A} (c : A) (a : list A) : forall b x y,
  ~ In c a -> ~ In c b -> a ++ c :: x = b ++ c :: y -> a = b /\ x = y.
Proof.
  induction a as [|d a IH]; intros [|e b] x y Ha Hb H; cbn in *.
  - injection H as ->. auto.
  - injection H as H1 _. symmetry in H1. tauto.
  - injection H as H1 _. tauto.
  - injection H as -> H2. destruct (IH b x y) as [-> ->]; [tauto|tauto|exact H2|auto].
Qed.

Lemma suffixed_inj a b n m : no_us a -> no_us b -> suffixed a n = suffixed b m -> a = b /\ n = m.
Proof. intros Ha Hb H. destruct (app_sep_inj _ a b _ _ Ha Hb H) as [E1 E2]. auto using show_nat_inj. Qed.

Lemma suffixed_not_plain a n b : no_us b -> suffixed a n <> b.
Proof. intros Hb E. apply Hb. rewrite <- E. apply in_or_app. right. left. reflexivity. Qed.

Definition nth_name (id : str) (k : nat) : str := if Nat.eqb k 1 then id else suffixed id k.

Lemma nth_name_inj a b n m : no_us a -> no_us b -> nth_name a n = nth_name b m -> a = b /\ n = m.
Proof.
  unfold nth_name. intros Ha Hb. destruct (Nat.eqb_spec n 1) as [->|_], (Nat.eqb_spec m 1) as [->|_]; intros E.
  - auto.
  - symmetry in E. destruct (suffixed_not_plain _ _ _ Ha E).
  - destruct (suffixed_not_plain _ _ _ Hb E).
  - apply suffixed_inj; assumption.
Qed.

Lemma count_of_set k id n seen :
  count_of k (set_count id n seen) = if str_eqb k id then Some n else count_of k seen.
Proof.
  induction seen as [|[k0 c0] r IH]; cbn; [reflexivity|].
  destruct (str_eqb_spec id k0) as [<-|E]; cbn; [destruct (str_eqb k id); reflexivity|].
  rewrite IH. destruct (str_eqb_spec k k0), (str_eqb_spec k id); try reflexivity. congruence.
Qed.

Definition cnt (id : str) (seen : list (str * nat)) : nat :=
  match count_of id seen with Some c => c | None => 0 end.

Lemma cnt_set k id n seen : cnt k (set_count id n seen) = if str_eqb k id then n else cnt k seen.
Proof. unfold cnt. rewrite count_of_set. destruct (str_eqb k id); reflexivity. Qed.

Definition table_ok (seen : list (str * nat)) : Prop :=
  forall id c, count_of id seen = Some c -> 1 <= c /\ no_us id.

Lemma table_ok_cnt seen id : table_ok seen -> 1 <= cnt id seen -> no_us id.
Proof. unfold cnt. intros Hok H. destruct (count_of id seen) eqn:E; [exact (proj2 (Hok _ _ E))|lia]. Qed.

Lemma table_ok_set id n seen : table_ok seen -> 1 <= n -> no_us id -> table_ok (set_count id n seen).
Proof.
  intros Hok Hn Hid k c. rewrite count_of_set. destruct (str_eqb_spec k id) as [->|]; [|apply Hok].
  intros [= <-]. auto.
Qed.

Lemma assign_fields_cons id rest seen : table_ok seen ->
  assign_fields (id :: rest) seen
  = nth_name id (S (cnt id seen)) :: assign_fields rest (set_count id (S (cnt id seen)) seen).
Proof.
  intros Hok. cbn [assign_fields]. unfold cnt. destruct (count_of id seen) as [c|] eqn:E; [|reflexivity].
  destruct (Hok id c E) as [Hc _]. destruct c; [lia|reflexivity].
Qed.

Lemma assign_fields_nonempty ids : forall seen, Forall (fun s : str => s <> []) ids -> Forall (fun s : str => s <> []) (assign_fields ids seen).
Proof.
  induction ids as [|id rest IH]; intros seen H; cbn [assign_fields]; [constructor|].
  inversion H as [|? ? Hid Hrest]; subst. destruct (count_of id seen).
  - constructor; [|exact (IH _ Hrest)]. unfold suffixed. destruct id; [contradiction|discriminate].
  - constructor; [exact Hid|exact (IH _ Hrest)].
Qed.

(* the names already handed out *)
Definition used (seen : list (str * nat)) (x : str) : Prop :=
  exists id k, 1 <= k <= cnt id seen /\ x = nth_name id k.

Lemma assign_fields_fresh ids : forall seen, table_ok seen -> Forall no_us ids ->
  NoDup (assign_fields ids seen) /\ forall x, In x (assign_fields ids seen) -> ~ used seen x.
Proof.
  induction ids as [|id rest IH]; intros seen Hok Hids; [split; [constructor|intros x []]|].
  rewrite (assign_fields_cons _ _ _ Hok). inversion Hids as [|? ? Hid Hrest]; subst.
  set (n := S (cnt id seen)). set (seen1 := set_count id n seen).
  destruct (IH seen1) as [ND Hfresh]; [apply table_ok_set; [exact Hok|lia|exact Hid]|exact Hrest|].
  assert (Hmono : forall x, used seen x -> used seen1 x).
  { intros x (id' & k & Hk & ->). exists id', k. split; [|reflexivity]. unfold seen1. rewrite cnt_set.
    destruct (str_eqb_spec id' id) as [->|]; [lia|exact Hk]. }
  assert (Hnew : used seen1 (nth_name id n)).
  { exists id, n. unfold seen1. rewrite cnt_set, str_eqb_refl. split; [lia|reflexivity]. }
  split.
  - constructor; [|exact ND]. intros Hin. exact (Hfresh _ Hin Hnew).
  - intros x [<-|Hx] Hu; [|exact (Hfresh x Hx (Hmono x Hu))].
    (* the new name would be the [k]-th of [id] with k <= cnt id seen < n *)
    destruct Hu as (id' & k & Hk & E). apply nth_name_inj in E; [|exact Hid|apply (table_ok_cnt seen); [exact Hok|lia]].
    destruct E as [<- <-]. lia.
Qed.

(* the suffixing alone, for arbitrary underscore-free identifiers, however many fields carry the same one *)
Theorem field_names_distinct ids : Forall no_us ids -> NoDup (field_names ids).
Proof. intros H. apply (assign_fields_fresh ids []); [|exact H]. intros id c. discriminate. Qed.

Lemma mem_In_str k l : mem k l = true <-> In k l.
Proof. apply mem_In. Qed.

(* uniqueTypeName hands out no name that the search has seen, hence none of a completed declaration *)
Lemma first_free_not_in name all : forall fuel count r, first_free name all count fuel = Some r -> ~ In r all.
Proof.
  induction fuel as [|f IH]; intros count r H; cbn in H; [discriminate|].
  destruct (mem (suffixed name count) all) eqn:E; [exact (IH _ _ H)|].
  injection H as <-. intros Hin. apply mem_In in Hin. congruence.
Qed.

Theorem unique_type_name_fresh name taken all r : (forall x, In x taken -> In x all) ->
  unique_type_name name taken all = Some r -> ~ In r taken.
Proof.
  intros Hsub. unfold unique_type_name. destruct (mem name taken) eqn:E.
  - intros H Hin. exact (first_free_not_in name all _ _ _ H (Hsub _ Hin)).
  - intros [= <-] Hin. apply mem_In in Hin. congruence.
Qed.

Section NoUnderscore.
Variable U : uinfo.
Definition not_us (c : N) : bool := negb (N.eqb c c_underscore).

Lemma forallb_not_us s : forallb not_us s = true <-> no_us s.
Proof.
  unfold no_us, not_us. induction s as [|c s IH]; cbn; [tauto|].
  rewrite andb_true_iff, IH, negb_true_iff, N.eqb_neq. intuition.
Qed.

(* '_' is a separator for the splitter (not a letter, not a number) and no character upper-cases to it *)
Definition underscore_is_separator : Prop :=
  keeps U c_underscore = false /\ forall r, good U r = true -> keeps U r = true -> u_to_upper U r <> c_underscore.

Theorem identifierize_no_underscore caps s :
  underscore_is_separator -> Forall no_us caps -> forallb (good U) s = true -> no_us (identifierize U caps s).
Proof.
  intros [Hsep Hup] Hcaps Hg. apply forallb_not_us.
  (* the three fixed words and "A" contain no '_': by evaluation *)
  apply identifierize_chars; try reflexivity; try assumption.
  - intros r G K. unfold not_us. split; apply negb_true_iff, N.eqb_neq.
    + intros ->. congruence.
    + apply Hup; assumption.
  - eapply Forall_impl; [|exact Hcaps]. intros c Hc. apply forallb_not_us. exact Hc.
Qed.

(* sibling properties get pairwise distinct field names, for every set of names inside the guard *)
Theorem sibling_fields_distinct caps names :
  underscore_is_separator -> Forall no_us caps -> Forall (fun n => forallb (good U) n = true) names ->
  NoDup (field_names (map (identifierize U caps) names)).
Proof.
  intros Hsep Hcaps Hn. apply field_names_distinct. apply Forall_map.
  eapply Forall_impl; [|exact Hn]. intros n Hgn. apply identifierize_no_underscore; assumption.
Qed.
End NoUnderscore.
