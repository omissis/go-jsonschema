(* sort_props (Model/Schema.v) is a permutation of its input that sorts it by key; hence, for distinct keys, it does not
   depend on the order of its input (C12_sorted_visit). *)
From GJS Require Import Base Schema.
From Coq Require Import Permutation Sorting.

Lemma insert_prop_perm {A} (kv : str * A) l : Permutation (insert_prop kv l) (kv :: l).
Proof.
  induction l as [|x r IH]; cbn; [reflexivity|].
  destruct (str_leb (fst kv) (fst x)); [reflexivity|]. rewrite IH. apply perm_swap.
Qed.
Lemma sort_props_perm_self {A} (l : list (str * A)) : Permutation (sort_props l) l.
Proof. unfold sort_props. induction l as [|x r IH]; cbn; [constructor|]. rewrite insert_prop_perm, IH. reflexivity. Qed.

Lemma sort_props_In {A} (x : str * A) l : In x (sort_props l) <-> In x l.
Proof. split; apply Permutation_in; [|symmetry]; apply sort_props_perm_self. Qed.

(* a sorted list with distinct keys is determined by its elements, and sort_props sorts: hence sort_props_perm *)
Section Sort.
Context {A : Type}.
Definition key_le (x y : str * A) : Prop := str_leb (fst x) (fst y) = true.

Lemma insert_prop_sorted (kv : str * A) l : StronglySorted key_le l -> StronglySorted key_le (insert_prop kv l).
Proof.
  induction 1 as [|x r Hs IH Hall]; cbn; [constructor; constructor|].
  destruct (str_leb (fst kv) (fst x)) eqn:E.
  - constructor; [constructor; assumption|]. constructor; [exact E|].
    eapply Forall_impl; [|exact Hall]. intros y Hy. exact (str_leb_trans _ _ _ E Hy).
  - constructor; [exact IH|]. apply (Permutation_Forall (Permutation_sym (insert_prop_perm kv r))). constructor; [|exact Hall].
    destruct (str_leb_total (fst x) (fst kv)); [assumption|congruence].
Qed.
Lemma sort_props_sorted (l : list (str * A)) : StronglySorted key_le (sort_props l).
Proof. unfold sort_props. induction l as [|x r IH]; cbn; [constructor|]. apply insert_prop_sorted. exact IH. Qed.

Lemma sorted_perm_unique (l1 : list (str * A)) : forall l2,
  StronglySorted key_le l1 -> StronglySorted key_le l2 -> NoDup (map fst l1) -> Permutation l1 l2 -> l1 = l2.
Proof.
  induction l1 as [|x r IH]; intros l2 S1 S2 ND P.
  - apply Permutation_nil in P. subst. reflexivity.
  - destruct l2 as [|y r2]; [apply Permutation_sym, Permutation_nil in P; discriminate|].
    inversion S1 as [|? ? S1r F1]; subst. inversion S2 as [|? ? S2r F2]; subst. inversion ND as [|? ? Hnotin NDr]; subst.
    assert (Hxy : x = y).
    { assert (Hx : In x (y :: r2)) by (rewrite <- P; left; reflexivity).
      assert (Hy : In y (x :: r)) by (rewrite P; left; reflexivity).
      destruct Hx as [->|Hx]; [reflexivity|]. destruct Hy as [->|Hy]; [reflexivity|].
      rewrite Forall_forall in F1, F2.
      (* equal keys at two positions of l1 contradict NoDup *)
      exfalso. apply Hnotin. rewrite (str_leb_antisym _ _ (F1 y Hy) (F2 x Hx)). apply in_map. exact Hy. }
    subst y. f_equal. apply IH; auto. eapply Permutation_cons_inv. exact P.
Qed.

(* C12_sorted_visit: sorting is insensitive to the order in which a map's entries are visited *)
Theorem sort_props_perm (l l' : list (str * A)) : NoDup (map fst l) -> Permutation l l' -> sort_props l = sort_props l'.
Proof.
  intros ND P. apply sorted_perm_unique; try apply sort_props_sorted.
  - rewrite sort_props_perm_self. exact ND.
  - rewrite !sort_props_perm_self. exact P.
Qed.
End Sort.
