(* Identifier synthesis (Model/Ident.v): the splitter drops exactly the separator characters, and for names
   inside the character guard [good] Identifierize yields a valid, exported Go identifier. *)
From GJS Require Import Base Ident.

Section IdentP.
Variable U : uinfo.

Notation classify := (classify U).
Notation split_go := (split_go U).
Notation split_ident := (split_ident U).

Definition keeps (r : N) : bool := negb (is_delim (classify r)).

Lemma concat_push part acc : concat (rev (push_part part acc)) = concat (rev acc) ++ rev part.
Proof.
  unfold push_part. destruct part as [|x p]; cbn [nonempty].
  - cbn. rewrite app_nil_r. reflexivity.
  - cbn [rev]. rewrite concat_app. cbn. rewrite app_nil_r. reflexivity.
Qed.

Lemma push_part_nonempty part acc : Forall (fun p => p <> []) acc -> Forall (fun p => p <> []) (push_part part acc).
Proof.
  unfold push_part. destruct part as [|x p]; cbn [nonempty]; auto.
  intros H. constructor; auto. cbn [rev]. intros E. apply app_eq_nil in E. destruct E; discriminate.
Qed.

Lemma cstate_eqb_eq a b : cstate_eqb a b = true -> a = b.
Proof. destruct a, b; cbn; congruence. Qed.

(* The loop state, read abstractly: [acc] holds the finished parts; the pending one is [part],
   or nothing inside a separator run.  A character joins the pending part or closes it. *)
Definition pend (cur : cstate) (part : list N) : list N := if is_delim cur then [] else part.
Definition joins (cur nxt : cstate) : bool :=
  negb (is_delim cur) && (cstate_eqb nxt cur || match cur, nxt with CSUpper, CSLower => true | _, _ => false end).

Lemma split_go_nil cur part acc : split_go [] cur part acc = rev (push_part (pend cur part) acc).
Proof. cbn. unfold pend. destruct (is_delim cur); reflexivity. Qed.

Lemma split_go_cons r rest cur part acc :
  split_go (r :: rest) cur part acc =
  if joins cur (classify r) then split_go rest (classify r) (r :: part) acc
  else split_go rest (classify r) (pend (classify r) [r]) (push_part (pend cur part) acc).
Proof. cbn [Ident.split_go]. destruct cur, (classify r); reflexivity. Qed.

Lemma joins_keeps cur nxt : joins cur nxt = true -> is_delim cur = false /\ is_delim nxt = false.
Proof. destruct cur, nxt; cbn; auto; discriminate. Qed.

Lemma split_go_spec rest : forall cur part acc,
  Forall (fun p => p <> []) acc ->
  Forall (fun p => p <> []) (split_go rest cur part acc) /\
  concat (split_go rest cur part acc) = concat (rev acc) ++ rev (pend cur part) ++ filter keeps rest.
Proof.
  induction rest as [|r rest IH]; intros cur part acc H; cbn [filter].
  - rewrite split_go_nil, concat_push, app_nil_r. auto using Forall_rev, push_part_nonempty.
  - unfold keeps at 1. rewrite split_go_cons. destruct (joins cur (classify r)) eqn:J.
    + apply joins_keeps in J. destruct J as [D K], (IH (classify r) (r :: part) acc H) as [F ->].
      unfold pend. rewrite D, K. cbn [negb rev]. rewrite <- !app_assoc. split; [exact F|reflexivity].
    + destruct (IH (classify r) (pend (classify r) [r]) (push_part (pend cur part) acc)) as [F ->];
        [apply push_part_nonempty, H|].
      split; [exact F|]. rewrite concat_push, <- app_assoc. unfold pend. destruct (is_delim (classify r)); reflexivity.
Qed.

Theorem split_concat s : concat (split_ident s) = filter keeps s.
Proof. apply (split_go_spec s CSNothing [] []). constructor. Qed.

Theorem split_parts_nonempty s : Forall (fun p => p <> []) (split_ident s).
Proof. apply (split_go_spec s CSNothing [] []). constructor. Qed.

Lemma split_part_chars s p r : In p (split_ident s) -> In r p -> In r s /\ keeps r = true.
Proof. intros Hp Hr. apply filter_In. rewrite <- split_concat. apply in_concat. exists p. auto. Qed.

(* with [stable] below, the characters for which the construction is sound: the guard [good] *)
Definition nice (r : N) : bool :=
  if u_lower U r then u_letter U r && u_upper U (u_to_upper U r) && u_letter U (u_to_upper U r)
  else if u_upper U r then u_letter U r && u_upper U (u_to_upper U r) && u_letter U (u_to_upper U r)
  else if u_number U r then u_digit U r
  else true.       (* separators are dropped, caseless letters are letters *)

(* ToUpper leaves non-cased characters alone: part of the guard (it fails of title-case letters such
   as U+01C5, whose ToUpper is U+01C4) *)
Definition stable (r : N) : bool :=
  if u_lower U r || u_upper U r then true else N.eqb (u_to_upper U r) r.

Definition good (r : N) : bool := nice r && stable r.

Lemma good_cases r : good r = true ->
  (u_letter U r = true /\ u_letter U (u_to_upper U r) = true /\ u_upper U (u_to_upper U r) = true) \/
  (u_lower U r = false /\ u_upper U r = false /\ u_to_upper U r = r /\ (u_number U r = true -> u_digit U r = true)).
Proof.
  unfold good, nice, stable. intros H. apply andb_true_iff in H. destruct H as [Hn Hs].
  destruct (u_lower U r); [left; rewrite !andb_true_iff in Hn; tauto|].
  destruct (u_upper U r); [left; rewrite !andb_true_iff in Hn; tauto|].
  right. repeat split; [apply N.eqb_eq, Hs|]. intros E. rewrite E in Hn. exact Hn.
Qed.

Lemma good_keeps_char r : good r = true -> keeps r = true ->
  go_ident_char U r = true /\ go_ident_char U (u_to_upper U r) = true.
Proof.
  unfold go_ident_char. intros G K. destruct (good_cases r G) as [(-> & -> & _)|(L & Up & -> & Hd)]; [auto|].
  enough (u_letter U r || N.eqb r c_underscore || u_digit U r = true) by auto.
  unfold keeps, Ident.classify in K. rewrite L, Up in K.
  destruct (u_number U r); [rewrite Hd, orb_true_r; reflexivity|].
  destruct (u_letter U r); [reflexivity|discriminate K].
Qed.

Lemma good_upper_head r : good r = true -> not_case_sensitive U (u_to_upper U r) = false -> u_upper U (u_to_upper U r) = true.
Proof.
  intros G. destruct (good_cases r G) as [(_ & _ & ->)|(L & Up & -> & _)]; [reflexivity|].
  unfold not_case_sensitive. rewrite L, Up. discriminate.
Qed.

Lemma capitalize_cases caps r rest :
  In (capitalize U caps (r :: rest)) caps \/ capitalize U caps (r :: rest) = u_to_upper U r :: rest.
Proof.
  unfold capitalize. destruct (find (fun c => equal_fold U c (r :: rest)) caps) eqn:F; [|auto].
  left. exact (proj1 (find_some _ _ F)).
Qed.

Lemma forallb_filter_id {A} (f : A -> bool) (l : list A) : forallb f (filter f l) = true.
Proof. apply forallb_forall. intros x Hx. apply filter_In in Hx. apply Hx. Qed.

Lemma forallb_filter_mono {A} (f g : A -> bool) (l : list A) : forallb g l = true -> forallb g (filter f l) = true.
Proof. rewrite !forallb_forall. intros H x Hx. apply filter_In in Hx. apply H, Hx. Qed.

Lemma body_chars (Q : N -> bool) caps s :
  (forall r, good r = true -> keeps r = true -> Q r = true /\ Q (u_to_upper U r) = true) ->
  Forall (fun c => forallb Q c = true) caps -> forallb good s = true ->
  forallb Q (flat_map (capitalize U caps) (split_ident s)) = true.
Proof.
  intros HQ Hcaps Hg. rewrite forallb_flat_map. apply forallb_forall. intros [|r rest] Hp; [reflexivity|].
  assert (Hx : forall x, In x (r :: rest) -> Q x = true /\ Q (u_to_upper U x) = true).
  { intros x Hx. destruct (split_part_chars s _ x Hp Hx) as [Hs Hk]. rewrite forallb_forall in Hg. auto. }
  destruct (capitalize_cases caps r rest) as [C| ->].
  - rewrite Forall_forall in Hcaps. exact (Hcaps _ C).
  - cbn [forallb]. apply andb_true_iff. split; [apply Hx; left; reflexivity|].
    apply forallb_forall. intros x Hin. apply Hx. right. exact Hin.
Qed.

Definition caps_ok (caps : list str) : Prop :=
  Forall (fun c => forallb (go_ident_char U) c = true) caps.

Definition blank_ok : Prop :=
  go_ident U s_Blank = true /\ exported U s_Blank = true /\ go_ident U s_Wildcard = true /\ exported U s_Wildcard = true /\
  go_ident U s_Undefined = true /\ exported U s_Undefined = true /\ u_letter U c_A = true /\ u_upper U c_A = true.

(* a capitalisation entry is usable when it starts with an upper-case letter, a caseless letter
   or a non-letter (the last two get the "A" prefix); one starting in lower case would yield an
   unexported identifier: excluded by the guard *)
Definition cap_start_ok (c : str) : Prop :=
  match c with
  | [] => False
  | r :: _ => u_upper U r = true \/ (u_lower U r = false /\ u_upper U r = false) \/ u_letter U r = false
  end.

Lemma body_head caps s r0 rest :
  Forall cap_start_ok caps -> forallb good s = true ->
  flat_map (capitalize U caps) (split_ident s) = r0 :: rest ->
  u_letter U r0 = true -> not_case_sensitive U r0 = false -> u_upper U r0 = true.
Proof.
  intros Hc Hg E EL EC. pose proof (split_parts_nonempty s) as HNE. pose proof (split_part_chars s) as Hin.
  destruct (split_ident s) as [|[|r p] ps]; [discriminate E|inversion HNE; contradiction|].
  assert (G : good r = true).
  { rewrite forallb_forall in Hg. apply Hg. apply (Hin (r :: p) r); left; reflexivity. }
  cbn [flat_map] in E. destruct (capitalize_cases caps r p) as [C|C].
  - rewrite Forall_forall in Hc. apply Hc in C. destruct (capitalize U caps (r :: p)) as [|c0 c]; [contradiction|].
    injection E as -> _. unfold not_case_sensitive in EC.
    destruct C as [Hu|[[Hl Hu]|Hl]]; [exact Hu|rewrite Hl, Hu in EC; discriminate EC|congruence].
  - rewrite C in E. injection E as <- _. apply good_upper_head; assumption.
Qed.

(* a case principle for [identifierize]: its possible results, [b] standing for the capitalised parts put together;
   cases 3 and 4 come without the conditions that select them ([b = []]; a first character that is no cased letter) *)
Lemma identifierize_cases caps s (b := flat_map (capitalize U caps) (split_ident s)) (P : str -> Prop) :
  P s_Blank -> P s_Wildcard -> P s_Undefined -> P (c_A :: b) ->
  (forall r0 rest, b = r0 :: rest -> u_letter U r0 = true -> not_case_sensitive U r0 = false -> P b) ->
  P (identifierize U caps s).
Proof.
  intros HB HW HU HA HP. unfold identifierize. destruct (str_eqb s []); [exact HB|]. destruct (str_eqb s [42%N]); [exact HW|].
  unfold ident_body. fold b. destruct b as [|r0 rest]; [exact HU|].
  destruct (negb (u_letter U r0) || not_case_sensitive U r0) eqn:EP; [exact HA|].
  apply orb_false_iff in EP. destruct EP as [EL EC]. apply negb_false_iff in EL. exact (HP _ _ eq_refl EL EC).
Qed.

(* a character predicate holds throughout the result if it holds of what the result is made of: kept
   characters, their upper-case images, capitalisation entries, the fixed words (NamesP: "is not '_'") *)
Theorem identifierize_chars (Q : N -> bool) caps s :
  (forall r, good r = true -> keeps r = true -> Q r = true /\ Q (u_to_upper U r) = true) ->
  Forall (fun c => forallb Q c = true) caps ->
  forallb Q s_Blank = true -> forallb Q s_Wildcard = true -> forallb Q s_Undefined = true -> Q c_A = true ->
  forallb good s = true -> forallb Q (identifierize U caps s) = true.
Proof.
  intros HQ Hcaps HB HW HU HA Hg. pose proof (body_chars Q caps s HQ Hcaps Hg) as Hall.
  apply identifierize_cases; try assumption.
  - cbn [forallb]. rewrite HA. exact Hall.
  - intros. exact Hall.
Qed.

Theorem identifierize_valid caps s :
  blank_ok -> caps_ok caps -> forallb good s = true -> go_ident U (identifierize U caps s) = true.
Proof.
  intros (B1 & _ & B3 & _ & B5 & _ & B7 & _) Hc Hg. pose proof (body_chars _ caps s good_keeps_char Hc Hg) as Hall.
  apply identifierize_cases; try assumption; unfold go_ident, go_ident_start.
  - rewrite B7, Hall. reflexivity.
  - intros r0 rest E EL _. rewrite E in *. cbn [forallb] in Hall. apply andb_true_iff in Hall. rewrite EL. apply Hall.
Qed.

Theorem identifierize_exported caps s :
  blank_ok -> Forall cap_start_ok caps -> forallb good s = true -> exported U (identifierize U caps s) = true.
Proof.
  intros (_ & B2 & _ & B4 & _ & B6 & _ & B8) Hc Hg. apply identifierize_cases; try assumption.
  intros r0 rest E. rewrite E. apply (body_head caps s r0 rest); assumption.
Qed.

End IdentP.
