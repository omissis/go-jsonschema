(* C09 for a method of default assignments alone.  This file defines when a default assignment is well-formed over the decoded fields
   ([dflt_wf]: an existing named field, a literal that fits) and what every field holds afterwards ([expected]: the default literal where
   the key is missing or null, the decoded value otherwise).  The theorem itself ([defaults_method], and [defaulted_object_method] composed with the generator)
   is the case without checks of the theorem for defaults and checks, and stands in DefaultsChecksP.v.  Here also the generator's side:
   an object all of whose properties are plain strings with a string default gets exactly one default assignment per field. *)
From GJS Require Import Base Schema GoType Gen Exec ExecP GenP.

Section Defaults.
Variable dvf : gty -> json -> option gval.

Definition dname (v : validator) : str := match v with VDefault fn _ _ _ => fn | _ => [] end.
Definition is_default_of (f : str) (v : validator) : bool := str_eqb (dname v) f.
Definition dflt_wf (flds : list (str * gval)) (v : validator) : Prop :=
  exists f j ty dv d, v = VDefault f j ty dv /\ f <> [] /\ (exists x, lookup f flds = Some x) /\ dvf ty dv = Some d.

Definition expected (raw : raw_t) (flds0 : list (str * gval)) (vs : list validator) (f : str) : option gval :=
  match find (is_default_of f) vs with
  | Some (VDefault _ j ty dv) => if raw_missing raw j then dvf ty dv else lookup f flds0
  | _ => lookup f flds0
  end.

Lemma expected_cons_default raw flds0 fn j ty dv r f :
  expected raw flds0 (VDefault fn j ty dv :: r) f
  = if str_eqb fn f then (if raw_missing raw j then dvf ty dv else lookup f flds0) else expected raw flds0 r f.
Proof.
  unfold expected. cbn [find]. change (is_default_of f (VDefault fn j ty dv)) with (str_eqb fn f).
  destruct (str_eqb fn f); reflexivity.
Qed.

Lemma expected_ext raw flds1 flds2 vs f : lookup f flds1 = lookup f flds2 -> expected raw flds1 vs f = expected raw flds2 vs f.
Proof. intros H. unfold expected. rewrite H. reflexivity. Qed.

Lemma dflt_wf_set n v flds w : dflt_wf flds w -> dflt_wf (set_field n v flds) w.
Proof.
  intros (f & j & ty & dv & d & -> & Hn & [x Hx] & Hd). exists f, j, ty, dv, d. repeat split; try assumption.
  apply lookup_in_keys. rewrite set_field_keys. exact (List.in_map fst _ _ (lookup_In _ _ _ Hx)).
Qed.

Lemma find_default_none f vs : ~ In f (map dname vs) -> find (is_default_of f) vs = None.
Proof.
  intros H. apply find_all_false. intros v Hv. apply str_eqb_neq. intros E. apply H. rewrite <- E. exact (List.in_map dname vs v Hv).
Qed.

Lemma expected_no_default raw flds0 vs f : ~ In f (map dname vs) -> expected raw flds0 vs f = lookup f flds0.
Proof. intros H. unfold expected. rewrite (find_default_none f vs H). reflexivity. Qed.

End Defaults.

(* non-vacuity: fields a (defaulted "x") and b (defaulted "y"); the document {"a": "z", "b": null} *)
Example defaults_inhabited :
  let fs := [mkField [65]%N [97]%N false TString (Some (JStr [120]%N)) false; mkField [66]%N [98]%N false TString (Some (JStr [121]%N)) false] in
  let vs := [VDefault [65]%N [97]%N TString (JStr [120]%N); VDefault [66]%N [98]%N TString (JStr [121]%N)] in
  let kv := [([97]%N, JStr [122]%N); ([98]%N, JNull)] in
  run_method (dec (fun _ _ => true) [] 3) zero (default_val [] 3) (Some fs) TString vs (JObj kv) = Ok (GSt [([65]%N, GS [122]%N); ([66]%N, GS [121]%N)]).
Proof. vm_compute. reflexivity. Qed.

Definition dstr_leaf (p : schema) : Prop :=
  exists c s0, p = Sch c [] None false None [] [] /\ c_types c = [SString] /\ c_ref c = None /\ c_enum c = None /\ c_default c = Some (JStr s0) /\
               c_format c = None /\ has_string_kw c = false.

Section GenDefaults.
Variable idf : str -> str.
Variable cf : cfg.
Variable defs : list (str * schema).
Notation gen := (Gen.gen idf cf defs).

Lemma gen_dstr_leaf f self sc p : dstr_leaf p -> gen (S f) MInline self false p sc = Done (TString, c_bounds (s_con p)).
Proof.
  intros (c & s0 & -> & Ht & Hr & He & Hd & Hf & Hk). rewrite gen_inline_typed with (t := SString) by first [assumption | reflexivity].
  cbn [is_prim_sty primitive s_con]. rewrite Hf. reflexivity.
Qed.

Lemma make_field_dstr c self fname k p : dstr_leaf p ->
  exists s0,
    make_field defs c self fname k p TString (c_bounds (s_con p)) =
    (mkField fname k (negb (mem k (c_required c))) TString (Some (JStr s0)) false, false, [VDefault fname k TString (JStr s0)]).
Proof.
  intros (pc & s0 & -> & Ht & Hr & He & Hd & Hf & Hk). exists s0. cbn [s_con].
  rewrite make_field_default with (dv := JStr s0) by exact Hd. unfold default_property_value. cbn [s_con s_addl field_validators]. rewrite Hk. reflexivity.
Qed.

Definition dinfo (i : finfo) : Prop :=
  exists fname k o s0, i = (mkField fname k o TString (Some (JStr s0)) false, false, [VDefault fname k TString (JStr s0)]).

(* of a [finfo] i, [snd (fst i)] says whether the field counts as required and [snd i] are its validators *)
Lemma dinfos_method (infos : list finfo) : Forall dinfo infos ->
  flat_map (fun i : finfo => if snd (fst i) then [VRequired (f_json (fst (fst i)))] else []) infos = [] /\
  map dname (flat_map (fun i : finfo => snd i) infos) = map f_name (map (fun i : finfo => fst (fst i)) infos) /\
  Forall (fun v => exists fn j s0, v = VDefault fn j TString (JStr s0)) (flat_map (fun i : finfo => snd i) infos).
Proof.
  induction 1 as [|i r (fn & k & o & s0 & ->) _ (IH1 & IH2 & IH3)]; [repeat split; constructor|].
  cbn [flat_map map fst snd app dname f_name]. rewrite IH2. repeat split; [exact IH1|].
  constructor; [|exact IH3]. exists fn, k, s0. reflexivity.
Qed.

Theorem object_method_defaults_only f self sub s scope t b :
  plain_object s -> s_addl s = None -> (forall k p, In (k, p) (s_props s) -> dstr_leaf p) ->
  gen (S (S f)) MType self sub s scope = Done (t, b) ->
  exists fs vs, t = TStruct [] fs (Some vs) /\ find f_addl fs = None /\ map dname vs = map f_name fs /\
                map f_name fs = map fst (prop_names idf (s_props s)) /\
                Forall (fun v => exists fn j s0, v = VDefault fn j TString (JStr s0)) vs.
Proof.
  intros Hp Ha Hd Hg.
  destruct (gen_object_infos idf cf defs dinfo (S f) self sub s scope t b Hp Ha Hg) as (infos & Hi & Hnames & Hfa & ->).
  { intros fname k p ty bp Hin Hgp. assert (Hl : dstr_leaf p) by exact (Hd k p (prop_names_In_inv idf _ _ Hin)).
    rewrite (gen_dstr_leaf f self _ p Hl) in Hgp. inversion Hgp; subst.
    destruct (make_field_dstr (s_con s) self fname k p Hl) as (s0 & ->). exists fname, k, (negb (mem k (c_required (s_con s)))), s0. reflexivity. }
  eexists. eexists. split; [reflexivity|]. destruct (dinfos_method infos Hi) as (-> & H2 & H3).
  repeat split; try assumption. rewrite map_map. exact Hnames.
Qed.
End GenDefaults.

(* non-vacuity of [DefaultsChecksP.defaulted_object_method]: {a: string default "x", b: string default "y"} *)
Definition ex_dstr (d : str) : schema := Sch (mkC [SString] None None [] 0 0 0 0 None None (mkBounds None None None None) (Some (JStr d)) None) [] None false None [] [].
Definition ex_dobj : schema :=
  Sch (mkC [SObject] None None [] 0 0 0 0 None None (mkBounds None None None None) None None) [([97]%N, ex_dstr [120]%N); ([98]%N, ex_dstr [121]%N)] None false None [] [].
Example defaulted_object_inhabited :
  plain_object ex_dobj /\ s_addl ex_dobj = None /\ (forall k p, In (k, p) (s_props ex_dobj) -> dstr_leaf p) /\
  NoDup (map fst (prop_names (fun s => s) (s_props ex_dobj))) /\ (forall fname kp, In (fname, kp) (prop_names (fun s => s) (s_props ex_dobj)) -> fname <> []) /\
  exists t b, Gen.gen (fun s => s) (mkCfg false false) [] 3 MType None false ex_dobj [82]%N = Done (t, b).
Proof.
  split; [repeat split; try reflexivity; discriminate|]. split; [reflexivity|]. split.
  - intros k p [H|[H|[]]]; inversion H; subst; eexists; eexists; repeat split; reflexivity.
  - split; [vm_compute; repeat constructor; cbn; intuition discriminate|]. split.
    + intros fname kp H. vm_compute in H. destruct H as [H|[H|[]]]; inversion H; subst; discriminate.
    + eexists. eexists. vm_compute. reflexivity.
Qed.
