(* C19, totality: a generated Unmarshal method never panics.  The only partial operations of the
   templates are a dereference / index / call on a value of the wrong shape; [wf_ty] is the decidable
   condition "every validator names a field whose type has the shape it dereferences", and the theorem
   says that under it no document and no fuel leads to Crash.  [wf_ty] is evaluated on the type
   generated for every case of the correspondence run (RunCore.case_wf).
   The proof carries [osafe]: an outcome is not Crash and its value has the shape of its type ([vshape]);
   the validators of a method keep a state invariant [I] whose fields a typing [ft] describes ([st_typed]). *)
From GJS Require Import Base Schema GoType Exec ExecP.

(* [dec_good] (which Props/C19.v states) and the conclusions of [plain_fields_safe], [addl_block_safe], [struct_method_safe] and
   [named_method_safe] below (which stand for C19 in this file) are [osafe] statements in the model's own terms, without the
   abbreviation, for those who read them there; [osafe_intro] and [osafe_bind] apply to them as they are *)
Definition osafe {A} (P : A -> Prop) (o : outcome A) : Prop := o <> Crash /\ forall a, o = Ok a -> P a.

Lemma osafe_intro {A} (P : A -> Prop) o : match o with Ok a => P a | Crash => False | _ => True end -> osafe P o.
Proof. destruct o; intros H; split; congruence || contradiction. Qed.

Lemma osafe_bind {A B} (P : A -> Prop) (Q : B -> Prop) o g :
  osafe P o -> (forall a, P a -> osafe Q (g a)) -> osafe Q (obind o g).
Proof.
  intros [Hc Hp] Hg. destruct o; cbn; try (apply osafe_intro; exact I); [|congruence]. apply Hg, Hp. reflexivity.
Qed.

Lemma osafe_fold {A B} (P : A -> Prop) (f : A -> B -> outcome A) l :
  (forall a x, In x l -> P a -> osafe P (f a x)) ->
  forall o, osafe P o -> osafe P (fold_left (fun acc x => obind acc (fun a => f a x)) l o).
Proof.
  induction l as [|y r IH]; intros H o Ho; cbn [fold_left]; [exact Ho|].
  apply IH; [intros a x Hx; apply H; right; exact Hx|].
  apply (osafe_bind P P _ _ Ho). intros a Ha. apply H; [left; reflexivity|exact Ha].
Qed.

Lemma osafe_omap {A B} (R : A -> B -> Prop) g l :
  (forall x, In x l -> osafe (R x) (g x)) -> osafe (Forall2 R l) (omap g l).
Proof.
  induction l as [|x r IH]; intros H; cbn [omap]; [apply osafe_intro; constructor|].
  apply (osafe_bind (R x)); [apply H; left; reflexivity|]. intros y Hy.
  apply (osafe_bind (Forall2 R r)); [apply IH; intros z Hz; apply H; right; exact Hz|].
  intros ys Hys. apply osafe_intro. constructor; assumption.
Qed.

(* [gty] is nested through [list field] and [list validator]: the induction Coq derives for it says nothing of the field types
   and the anyOf branch types of a struct; this one does *)
Section GtyInd.
Variable P : gty -> Prop.
Hypothesis Hleaf : forall t, match t with TPtr _ | TSlice _ _ | TMap _ | TStruct _ _ _ | TNamed _ _ _ | TEnum _ _ _ _ => False | _ => True end -> P t.
Hypothesis Hptr : forall t, P t -> P (TPtr t).
Hypothesis Hslice : forall i t, P t -> P (TSlice i t).
Hypothesis Hmap : forall t, P t -> P (TMap t).
Hypothesis Hstruct : forall n fs plan, Forall (fun f => P (f_ty f)) fs ->
  (forall vs, plan = Some vs -> Forall (fun v => match v with VAnyOf bs => Forall P bs | _ => True end) vs) -> P (TStruct n fs plan).
Hypothesis Hnamed : forall n t plan, P t -> P (TNamed n t plan).
Hypothesis Henum : forall n c w vs, P c -> P (TEnum n c w vs).

Fixpoint gty_ind' (t : gty) : P t.
Proof.
  destruct t; try (apply Hleaf; exact I);
    [apply Hptr, gty_ind'|apply Hslice, gty_ind'|apply Hmap, gty_ind'|apply Hstruct|apply Hnamed, gty_ind'|apply Henum, gty_ind'].
  - induction fs as [|[n j o ty d a] r IHr]; constructor; [apply gty_ind'|exact IHr].
  - destruct plan as [vs|]; intros vs' [= <-]. induction vs as [|v r IHr]; constructor; [|exact IHr].
    destruct v; trivial. induction branches; constructor; [apply gty_ind'|assumption].
Qed.
End GtyInd.

(* [wf_ty] below, and [wf_s] and [F] of GenWfP, walk the fields and the validators of a struct by nested fixpoints; these are the
   same walks over any predicate on types, so that [wf_ty_struct] and its likes hold by conversion *)
Definition fields_all (p : gty -> bool) : list field -> bool :=
  fix go (fs : list field) : bool := match fs with [] => true | mkField _ _ _ ty _ _ :: r => p ty && go r end.
Definition branches_all (p : gty -> bool) : list validator -> bool :=
  fix gov (vs : list validator) : bool :=
    match vs with [] => true | VAnyOf bs :: r => forallb p bs && gov r | _ :: r => gov r end.

Lemma fields_all_forallb p fs : fields_all p fs = forallb (fun f => p (f_ty f)) fs.
Proof. induction fs as [|[] r IH]; cbn; congruence. Qed.
Lemma branches_all_forallb p vs :
  branches_all p vs = forallb (fun v => match v with VAnyOf bs => forallb p bs | _ => true end) vs.
Proof. induction vs as [|[] r IH]; cbn; congruence. Qed.

Lemma fields_all_In p fs f : fields_all p fs = true -> In f fs -> p (f_ty f) = true.
Proof. rewrite fields_all_forallb, forallb_forall. auto. Qed.
Lemma branches_all_In p vs bs b : branches_all p vs = true -> In (VAnyOf bs) vs -> In b bs -> p b = true.
Proof.
  rewrite branches_all_forallb, forallb_forall. intros H Hbs Hb. specialize (H _ Hbs). cbn in H.
  rewrite forallb_forall in H. auto.
Qed.

(* the hypotheses have the form [gty_ind'] provides *)
Lemma fields_all_and p q r fs :
  Forall (fun f => p (f_ty f) = q (f_ty f) && r (f_ty f)) fs -> fields_all p fs = fields_all q fs && fields_all r fs.
Proof. intros H. rewrite !fields_all_forallb. apply forallb_and, Forall_forall, H. Qed.
Lemma branches_all_and p q r vs :
  Forall (fun v => match v with VAnyOf bs => Forall (fun b => p b = q b && r b) bs | _ => True end) vs ->
  branches_all p vs = branches_all q vs && branches_all r vs.
Proof.
  intros H. rewrite !branches_all_forallb. apply forallb_and. intros v Hv. rewrite Forall_forall in H. specialize (H v Hv).
  destruct v; try reflexivity. apply forallb_and, Forall_forall, H.
Qed.

Lemma fields_all_impl (p q : gty -> bool) fs :
  Forall (fun f => p (f_ty f) = true -> q (f_ty f) = true) fs -> fields_all p fs = true -> fields_all q fs = true.
Proof.
  intros H. rewrite !fields_all_forallb. apply forallb_impl. intros f Hf. rewrite Forall_forall in H. exact (H f Hf).
Qed.
Lemma branches_all_impl (p q : gty -> bool) vs :
  Forall (fun v => match v with VAnyOf bs => Forall (fun b => p b = true -> q b = true) bs | _ => True end) vs ->
  branches_all p vs = true -> branches_all q vs = true.
Proof.
  intros H. rewrite !branches_all_forallb. apply forallb_impl. intros v Hv. rewrite Forall_forall in H. specialize (H v Hv).
  destruct v; trivial. apply forallb_impl. intros b Hb. rewrite Forall_forall in H. exact (H b Hb).
Qed.

Section Wf.
Variable fmt_ok : fmtk -> str -> bool.
Variable env : list (str * gty).
Notation dec := (Exec.dec fmt_ok env).
Notation default_val := (Exec.default_val env).

(* nothing is claimed of a value of an enum type, of a value of a reference to a definition, or of the values a map holds:
   [vshape] is [true] on the first two and on [GM _] at [TMap _] whatever is in it.  No validator reads such a field or looks into
   a map ([v_ok] asks for a string, a number, a slice or a null type), so the invariant does not need more *)
Fixpoint vshape (t : gty) (v : gval) {struct t} : bool :=
  match t with
  | TString => match v with GS _ => true | _ => false end
  | TBool => match v with GB _ => true | _ => false end
  | TFloat => match v with GF _ => true | _ => false end
  | TInt _ => match v with GI _ => true | _ => false end
  | TIface | TNullT => match v with GNil | GJ _ => true | _ => false end
  | TFmt _ => match v with GFm _ => true | _ => false end
  | TPtr u => match v with GNil => true | GP x => vshape u x | _ => false end
  | TSlice _ e => match v with GNil => true | GL l => forallb (vshape e) l | _ => false end
  | TMap _ => match v with GNil | GM _ => true | _ => false end
  | TStruct _ fs _ =>
      match v with
      | GSt vs =>
          (fix go (fs : list field) (vs : list (str * gval)) : bool :=
             match fs, vs with
             | [], [] => true
             | mkField n _ _ ty _ _ :: fr, (k, x) :: vr => str_eqb n k && vshape ty x && go fr vr
             | _, _ => false
             end) fs vs
      | _ => false
      end
  | TNamed _ u _ => vshape u v
  | TEnum _ _ _ _ => true
  | TRef _ => true
  end.

Definition fields_shape : list field -> list (str * gval) -> bool :=
  fix go (fs : list field) (vs : list (str * gval)) : bool :=
    match fs, vs with
    | [], [] => true
    | mkField n _ _ ty _ _ :: fr, (k, x) :: vr => str_eqb n k && vshape ty x && go fr vr
    | _, _ => false
    end.

Lemma vshape_struct n fs p vs : vshape (TStruct n fs p) (GSt vs) = fields_shape fs vs.
Proof. reflexivity. Qed.

Fixpoint nest_null (d : nat) (t : gty) : bool :=
  match d with
  | O => match t with TNullT | TIface => true | _ => false end
  | S d' => match t with TSlice _ e => nest_null d' e | _ => false end
  end.
Fixpoint nest_slice (d : nat) (t : gty) : bool :=
  match d with
  | O => true
  | S d' => match t with TSlice _ e => nest_slice d' e | _ => false end
  end.

Definition v_ok (ft : str -> option gty) (v : validator) : bool :=
  match v with
  | VRequired _ => true
  | VAnyOf _ => true             (* its branch types are checked by [wf_ty] itself *)
  | VNullType fn _ d => match ft fn with Some t => nest_null d t | None => false end
  | VDefault fn _ ty dv =>
      match fn with
      | [] => false
      | _ => match ft fn, default_val dv_fuel ty dv with Some t, Some d => vshape t d | _, _ => false end
      end
  | VArray fn _ d _ _ => negb (Nat.eqb d 0) && match ft fn with Some t => nest_slice d t | None => false end
  | VString fn _ nl _ _ _ =>
      match ft fn with Some TString => negb nl | Some (TPtr TString) => nl | _ => false end
  | VNumeric fn _ nl _ _ _ =>
      match ft fn with
      | Some (TInt _) | Some TFloat => negb nl
      | Some (TPtr (TInt _)) | Some (TPtr TFloat) => nl
      | _ => false
      end
  end.

Definition ft_struct (fs : list field) (fn : str) : option gty :=
  match fn with
  | [] => None
  | _ => option_map f_ty (find (fun f => str_eqb fn (f_name f)) fs)
  end.
Definition ft_named (u : gty) (fn : str) : option gty := match fn with [] => Some u | _ => None end.

Fixpoint names_ok (fs : list field) : bool :=
  match fs with
  | [] => true
  | f :: r => negb (match f_name f with [] => true | _ => false end) && negb (mem (f_name f) (map f_name r)) && names_ok r
  end.

Definition addl_ok (fs : list field) (vs : list validator) : bool :=
  match find f_addl fs with
  | None => true
  | Some fa => (existsb v_before vs || existsb v_raw_after vs) && match f_ty fa with TIface => true | _ => false end
  end.

Fixpoint wf_ty (t : gty) : bool :=
  match t with
  | TPtr u | TSlice _ u | TMap u => wf_ty u
  | TStruct name fs plan =>
      (fix go (fs : list field) : bool := match fs with [] => true | mkField _ _ _ ty _ _ :: r => wf_ty ty && go r end) fs &&
      names_ok fs &&
      match name, plan with
      | _ :: _, Some vs =>
          forallb (v_ok (ft_struct fs)) vs && addl_ok fs vs &&
          (* the branch types of an anyOf validator are decoded by the method: they are well formed themselves *)
          (fix gov (vs : list validator) : bool :=
             match vs with
             | [] => true
             | VAnyOf bs :: r => (fix gob (bs : list gty) : bool := match bs with [] => true | b :: r' => wf_ty b && gob r' end) bs && gov r
             | _ :: r => gov r
             end) vs
      | _, _ => true
      end
  | TNamed _ u plan =>
      wf_ty u && match plan with Some vs => forallb (v_ok (ft_named u)) vs && negb (existsb (fun v => match v with VAnyOf _ => true | _ => false end) vs) | None => true end
  | TEnum _ c _ _ => wf_ty c
  | TRef d => match lookup d env with Some _ => true | None => false end
  | _ => true
  end.

Definition env_wf : Prop := forall d u, lookup d env = Some u -> wf_ty u = true.

Lemma wf_ty_struct n fs plan :
  wf_ty (TStruct n fs plan) = fields_all wf_ty fs && names_ok fs &&
    match n, plan with _ :: _, Some vs => forallb (v_ok (ft_struct fs)) vs && addl_ok fs vs && branches_all wf_ty vs | _, _ => true end.
Proof. reflexivity. Qed.

Definition st_inv (T : gty) (st : gval) : Prop := vshape T st = true.


Lemma zero_shape : forall t, vshape t (zero t) = true.
Proof.
  induction t as [t Ht|t IHt|i t IHt|t IHt|n fs plan IHf _|n t plan IHt|n c w vs IHt] using gty_ind'; trivial.
  - destruct t; try contradiction; reflexivity.
  - rewrite zero_struct, vshape_struct.
    induction IHf as [|[n' j o ty d a] r H _ IHr]; [reflexivity|]. cbn in *. rewrite str_eqb_refl, H. exact IHr.
Qed.

Lemma fold_no_crash {A} (f : A -> outcome unit) (l : list A) :
  (forall x, In x l -> f x <> Crash) -> forall o, o <> Crash -> fold_left (fun acc x => obind acc (fun _ => f x)) l o <> Crash.
Proof.
  intros H o Ho. apply (osafe_fold (fun _ => True) (fun _ => f)); [|split; trivial]. intros _ x Hx _. split; auto.
Qed.

Lemma check_null_safe d : forall t x, nest_null d t = true -> vshape t x = true -> check_null d x <> Crash.
Proof.
  induction d as [|d IH]; intros t x Hn Hs.
  - destruct t; try discriminate; destruct x; cbn in *; congruence.
  - destruct t; try discriminate. cbn in Hn. destruct x; cbn in Hs; try discriminate; cbn [check_null]; try congruence.
    apply fold_no_crash; [|congruence]. intros y Hy. apply (IH t y Hn). rewrite forallb_forall in Hs. apply Hs; exact Hy.
Qed.

Lemma nest_slice_shaped d : forall t v, nest_slice d t = true -> vshape t v = true -> slice_shaped d v = true.
Proof.
  induction d as [|d IH]; intros t v Hn Hs; [reflexivity|]. destruct t; try discriminate.
  destruct v; try discriminate; [reflexivity|]. revert Hs. apply forallb_impl. intros y _. exact (IH t y Hn).
Qed.

Lemma check_array_safe d : forall t x mn mx, d <> 0 -> nest_slice d t = true -> vshape t x = true -> check_array d mn mx x <> Crash.
Proof.
  intros t x mn mx Hd Hn Hs. rewrite (check_array_exact d mn mx x Hd (nest_slice_shaped d t x Hn Hs)).
  destruct (levels_ok d mn mx x); congruence.
Qed.

Lemma check_string_safe mn mx p s : check_string mn mx p s <> Crash.
Proof. rewrite check_string_bytes. destruct (spec_string_bytes mn mx p s); congruence. Qed.

(* [ft] tells the type of what the states in [I] hold at each name it knows, and assigning a value of that type
   stays in [I].  [v_ok ft] is the condition under which a validator is safe on such states. *)
Definition st_typed (ft : str -> option gty) (I : gval -> Prop) : Prop :=
  forall st fn t, I st -> ft fn = Some t ->
    (exists x, get_plain fn st = Some x /\ vshape t x = true) /\
    (forall d, fn <> [] -> vshape t d = true -> exists st', set_plain fn d st = Some st' /\ I st').

Lemma fields_shape_typed fs : forall vs fn t, fields_shape fs vs = true -> ft_struct fs fn = Some t ->
  (exists x, lookup fn vs = Some x /\ vshape t x = true) /\
  (forall d, vshape t d = true -> fields_shape fs (set_field fn d vs) = true).
Proof.
  unfold ft_struct. induction fs as [|[n j o ty dd a] r IH]; intros vs fn t Hs Hf; [destruct fn; discriminate|].
  destruct vs as [|[k x] vr]; [discriminate|]. cbn [fields_shape] in Hs.
  apply andb_true_iff in Hs. destruct Hs as [Hs Hr]. apply andb_true_iff in Hs. destruct Hs as [Hk Hx].
  apply str_eqb_eq in Hk. subst k. destruct fn as [|c fn']; [discriminate|].
  cbn [find f_name lookup set_field] in *. destruct (str_eqb (c :: fn') n).
  - injection Hf as <-. split; [exists x; auto|]. intros d Hd. cbn [fields_shape]. rewrite str_eqb_refl, Hd, Hr. reflexivity.
  - destruct (IH vr (c :: fn') t Hr Hf) as [Hget Hset]. split; [exact Hget|]. intros d Hd.
    cbn [fields_shape]. rewrite str_eqb_refl, Hx. exact (Hset d Hd).
Qed.

Lemma struct_typed name fs plan : st_typed (ft_struct fs) (st_inv (TStruct name fs plan)).
Proof.
  intros st fn t Hs Hf. destruct st as [| | | | | | | | |vs|]; try discriminate.
  destruct (fields_shape_typed fs vs fn t Hs Hf) as [(x & Hx & Hxs) Hset].
  destruct fn as [|c fn']; [discriminate|]. cbn [get_plain set_plain]. rewrite Hx. split; [eauto|]. intros d _ Hd. eexists. split; [reflexivity|exact (Hset d Hd)].
Qed.

Lemma named_typed u (I : gval -> Prop) : (forall st, I st -> vshape u st = true) -> st_typed (ft_named u) I.
Proof.
  intros HI st fn t Hs Hf. destruct fn; [|discriminate]. injection Hf as <-. split; [|congruence]. exists st. auto.
Qed.

Lemma string_field ft (Inv : gval -> Prop) st fn jn (nl : bool) mn mx p : st_typed ft Inv -> Inv st ->
  v_ok ft (VString fn jn nl mn mx p) = true ->
  get_plain fn st = Some GNil /\ nl = true \/ exists s, get_plain fn st = Some (if nl then GP (GS s) else GS s).
Proof.
  intros HT Hs Hv. cbn [v_ok] in Hv. destruct (ft fn) as [t|] eqn:Ef; [|discriminate].
  destruct (HT st _ _ Hs Ef) as [(x & -> & Hx) _]. destruct t as [| | | | | | |u| | | | | |]; try discriminate.
  - (* TString *)
    apply negb_true_iff in Hv. subst nl. destruct x; try discriminate. eauto.
  - (* TPtr TString *)
    destruct u; try discriminate. subst nl. destruct x as [| | | | | |y| | | |]; try discriminate; [auto|].
    destruct y; try discriminate. eauto.
Qed.

Lemma num_shape t y : match t with TInt _ | TFloat => True | _ => False end -> vshape t y = true -> exists q, num_of y = Some q.
Proof. destruct t; try contradiction; destruct y; try discriminate; cbn; eauto. Qed.

Lemma numeric_field ft (Inv : gval -> Prop) st fn jn (nl : bool) rnd mult b : st_typed ft Inv -> Inv st ->
  v_ok ft (VNumeric fn jn nl rnd mult b) = true ->
  get_plain fn st = Some GNil /\ nl = true \/
  exists x q, get_plain fn st = Some (if nl then GP x else x) /\ num_of x = Some q.
Proof.
  intros HT Hs Hv. cbn [v_ok] in Hv. destruct (ft fn) as [t|] eqn:Ef; [|discriminate].
  destruct (HT st _ _ Hs Ef) as [(x & -> & Hx) _]. destruct t as [| | |k| | | |u| | | | | |]; try discriminate.
  - (* TFloat *)
    apply negb_true_iff in Hv. subst nl. destruct (num_shape TFloat x I Hx) as [q Hq]. eauto.
  - (* TInt *)
    apply negb_true_iff in Hv. subst nl. destruct (num_shape (TInt k) x I Hx) as [q Hq]. eauto.
  - (* TPtr of one of them *)
    assert (Hu : match u with TInt _ | TFloat => True | _ => False end) by (destruct u; try discriminate; exact I).
    assert (nl = true) by (destruct u; try discriminate; exact Hv). subst nl.
    destruct x as [| | | | | |y| | | |]; try discriminate; [auto|]. destruct (num_shape u y Hu Hx) as [q Hq]. eauto.
Qed.

Lemma after_step_safe ft (I : gval -> Prop) raw st v : st_typed ft I ->
  match v with VDefault _ _ _ _ => raw <> None | _ => True end -> v_ok ft v = true -> I st ->
  osafe I (after_step (default_val dv_fuel) raw st v).
Proof.
  intros HT Hraw Hv Hs.
  assert (Hchk : forall c : outcome unit, c <> Crash -> osafe I (obind c (fun _ => Ok st)))
    by (intros c Hc; apply osafe_intro; destruct c; cbn; trivial; congruence).
  destruct v; try (apply osafe_intro; exact Hs).
  - (* VNullType *)
    cbn [v_ok] in Hv. destruct (ft fname) as [t|] eqn:Ef; [|discriminate]. cbn [after_step].
    destruct (HT st _ _ Hs Ef) as [(x & -> & Hx) _]. apply Hchk. exact (check_null_safe depth t x Hv Hx).
  - (* VDefault: the literal has the type of the field, so the assignment keeps [I] *)
    cbn [v_ok] in Hv. destruct fname as [|c fn']; [discriminate|]. destruct (ft (c :: fn')) as [t|] eqn:Ef; [|discriminate].
    rewrite after_step_default by exact Hraw. destruct (raw_missing raw jname); [|apply osafe_intro; exact Hs].
    destruct (default_val dv_fuel ty dv) as [d|]; [|discriminate].
    destruct (proj2 (HT st _ _ Hs Ef) d) as (st' & -> & Hs'); [discriminate|exact Hv|]. apply osafe_intro. exact Hs'.
  - (* VArray *)
    cbn [v_ok] in Hv. apply andb_true_iff in Hv. destruct Hv as [Hd Hv]. apply negb_true_iff, Nat.eqb_neq in Hd.
    destruct (ft fname) as [t|] eqn:Ef; [|discriminate]. cbn [after_step].
    destruct (HT st _ _ Hs Ef) as [(x & -> & Hx) _]. apply Hchk. exact (check_array_safe depth t x mn mx Hd Hv Hx).
  - (* VString *)
    destruct (string_field ft I st fname jname nillable mn mx pattern HT Hs Hv) as [[Hg ->]|[s Hg]].
    + rewrite vstring_nil by exact Hg. apply osafe_intro. exact Hs.
    + rewrite vstring_at with (s := s) by exact Hg. destruct (spec_string_bytes mn mx pattern s); apply osafe_intro; trivial.
  - (* VNumeric *)
    destruct (numeric_field ft I st fname jname nillable round_to_int mult b HT Hs Hv) as [[Hg ->]|(x & q & Hg & Hq)].
    + rewrite vnumeric_nil by exact Hg. apply osafe_intro. exact Hs.
    + rewrite vnumeric_at with (x := x) (q := q) by assumption. destruct (accept_numeric _ _ _ q); apply osafe_intro; trivial.
Qed.

Lemma run_after_safe ft (I : gval -> Prop) raw vs st : st_typed ft I ->
  (forall v, In v vs -> match v with VDefault _ _ _ _ => raw <> None | _ => True end) -> forallb (v_ok ft) vs = true -> I st ->
  osafe I (run_after (default_val dv_fuel) vs raw st).
Proof.
  intros HT Hraw Hv Hs. apply osafe_fold; [|apply osafe_intro; exact Hs].
  intros a v Hin Ha. rewrite forallb_forall in Hv. exact (after_step_safe ft I raw a v HT (Hraw v Hin) (Hv v Hin) Ha).
Qed.

(* [osafe (fun v => vshape t v = true) (decf t x)] for every document [x], written out *)
Definition dec_good (decf : gty -> json -> outcome gval) (t : gty) : Prop :=
  forall x, decf t x <> Crash /\ forall v, decf t x = Ok v -> vshape t v = true.

Lemma Forall2_fields_shape fs vs :
  Forall2 (fun fl p => fst p = f_name fl /\ vshape (f_ty fl) (snd p) = true) fs vs -> fields_shape fs vs = true.
Proof.
  induction 1 as [|[n j o ty d a] [k x] fr vr [Hk Hx] _ IH]; [reflexivity|]. cbn in Hk, Hx. subst k.
  cbn [fields_shape]. rewrite str_eqb_refl, Hx. exact IH.
Qed.

Lemma plain_fields_safe decf name fs plan j :
  (forall fl, In fl fs -> dec_good decf (f_ty fl)) ->
  plain_fields decf zero fs j <> Crash /\ forall st, plain_fields decf zero fs j = Ok st -> vshape (TStruct name fs plan) st = true.
Proof.
  intros Hg. destruct j; cbn [plain_fields]; try (apply osafe_intro; exact I).
  - (* null leaves the zero struct *)
    apply osafe_intro. rewrite <- (zero_struct name fs plan). apply zero_shape.
  - eapply osafe_bind; [apply osafe_omap|intros vs Hvs; apply osafe_intro; exact (Forall2_fields_shape fs vs Hvs)].
    intros fl Hin. cbn beta. destruct (f_addl fl); [apply osafe_intro; split; [reflexivity|apply zero_shape]|].
    destruct (lookup (f_json fl) kv) as [x|]; [|apply osafe_intro; split; [reflexivity|apply zero_shape]].
    apply (osafe_bind _ _ _ _ (Hg fl Hin x)). intros v Hv. apply osafe_intro. split; [reflexivity|exact Hv].
Qed.

(* of the validators that run before the typed decode, `required` needs the raw map and anyOf decodes with its branch types *)
Definition branches_safe (decf : gty -> json -> outcome gval) (vs : list validator) : Prop :=
  forall bs bt, In (VAnyOf bs) vs -> In bt bs -> forall x, decf bt x <> Crash.

Lemma anyof_no_crash decf raw j bs : (forall bt, In bt bs -> decf bt j <> Crash) -> before_step decf raw j (VAnyOf bs) <> Crash.
Proof.
  intros H. cbn [before_step]. rewrite existsb_map.
  rewrite (existsb_false (fun bt => match decf bt j with Crash => true | _ => false end)).
  2: { intros x Hx. pose proof (H x Hx). destruct (decf x j); try reflexivity. congruence. }
  destruct (existsb _ _); [congruence|]. destruct (existsb _ _); congruence.
Qed.

Lemma run_before_safe decf vs raw j :
  branches_safe decf vs -> (existsb v_before vs = true -> raw <> None) -> run_before decf vs raw j <> Crash.
Proof.
  intros Hbr Hraw. apply fold_no_crash; [|congruence]. intros v Hin. destruct v; try (cbn; congruence).
  - assert (raw <> None) by exact (Hraw (existsb_before_required vs jname Hin)).
    cbn. destruct raw as [[kv|]|]; try congruence. destruct (lookup jname kv); congruence.
  - apply anyof_no_crash. intros bt Hbt. exact (Hbr branches bt Hin Hbt j).
Qed.

Lemma after_no_raw_ok ft vs : forallb (v_ok ft) vs = true -> existsb v_raw_after vs = false ->
  forall v, In v vs -> match v with VDefault _ _ _ _ | VNullType _ _ _ => False | _ => True end.
Proof. intros _ Hr v Hin. pose proof (existsb_false_In v_raw_after vs v Hr Hin). destruct v; try exact I; discriminate. Qed.

Lemma ft_struct_self fs fa : names_ok fs = true -> In fa fs -> ft_struct fs (f_name fa) = Some (f_ty fa).
Proof.
  induction fs as [|f r IH]; intros Hn Hin; [contradiction|].
  cbn [names_ok] in Hn. apply andb_true_iff in Hn. destruct Hn as [Hn Hr]. apply andb_true_iff in Hn. destruct Hn as [Hne Hnm].
  destruct Hin as [->|Hin].
  - unfold ft_struct. destruct (f_name fa) as [|c n] eqn:E; [discriminate|]. cbn [find]. rewrite E, str_eqb_refl. reflexivity.
  - specialize (IH Hr Hin). unfold ft_struct in *. destruct (f_name fa) as [|c n] eqn:E; [discriminate|]. cbn [find].
    destruct (str_eqb_spec (c :: n) (f_name f)) as [E2|]; [|exact IH].
    exfalso. apply negb_true_iff in Hnm.
    assert (Hm : mem (f_name f) (map f_name r) = true) by (apply mem_In; rewrite <- E2, <- E; apply (List.in_map f_name r fa Hin)). congruence.
Qed.

Lemma addl_block_safe name fs plan raw st :
  names_ok fs = true -> vshape (TStruct name fs plan) st = true ->
  (forall fa, find f_addl fs = Some fa -> raw <> None /\ f_ty fa = TIface) ->
  addl_block fs raw st <> Crash /\ forall st', addl_block fs raw st = Ok st' -> vshape (TStruct name fs plan) st' = true.
Proof.
  intros Hn Hs Ha. unfold addl_block. destruct (find f_addl fs) as [fa|] eqn:Ef; [|apply osafe_intro; exact Hs].
  destruct (Ha fa eq_refl) as [Hraw Hty]. destruct raw as [[kv|]|]; [|rewrite Hty; apply osafe_intro; exact Hs|congruence].
  apply find_some in Ef. pose proof (ft_struct_self fs fa Hn (proj1 Ef)) as Hft. rewrite Hty in *.
  destruct (struct_typed name fs plan st _ _ Hs Hft) as [_ Hset].
  destruct (Hset (GJ (JObj (remove_keys (map f_name fs ++ map f_json fs) kv)))) as (st' & -> & Hs');
    [intros E; rewrite E in Hft; discriminate|reflexivity|]. apply osafe_intro. exact Hs'.
Qed.

Lemma run_method_safe decf ft (I : gval -> Prop) ofs under vs j :
  st_typed ft I -> forallb (v_ok ft) vs = true -> branches_safe decf vs ->
  osafe I (match ofs with Some fl => plain_fields decf zero fl j | None => decf under j end) ->
  (forall raw st, (existsb v_before vs || existsb v_raw_after vs = true -> raw <> None) -> I st ->
     osafe I (match ofs with Some fl => addl_block fl raw st | None => Ok st end)) ->
  osafe I (run_method decf zero (default_val dv_fuel) ofs under vs j).
Proof.
  intros HT Hv Hbr Hdec Hend. unfold run_method.
  apply (osafe_bind (fun raw => existsb v_before vs || existsb v_raw_after vs = true -> raw <> None)).
  { apply osafe_intro. destruct (_ || _); [destruct j|]; cbn; trivial; congruence. }
  intros raw Hraw. apply (osafe_bind (fun _ => True)).
  { split; [|trivial]. apply run_before_safe; [exact Hbr|]. intros E. apply Hraw. rewrite E. reflexivity. }
  intros _ _. apply (osafe_bind I _ _ _ Hdec). intros st Hs. apply (osafe_bind I); [|intros st' Hs'; exact (Hend raw st' Hraw Hs')].
  apply (run_after_safe ft I); auto. intros v Hin. destruct v; trivial. apply Hraw, orb_true_iff. right.
  apply existsb_exists. eexists. split; [exact Hin|reflexivity].
Qed.

Lemma struct_method_safe decf c name fs vs j :
  names_ok fs = true -> forallb (v_ok (ft_struct fs)) vs = true -> addl_ok fs vs = true -> branches_safe decf vs ->
  (forall fl, In fl fs -> dec_good decf (f_ty fl)) ->
  run_method decf zero (default_val dv_fuel) (Some fs) (TStruct (c :: name) fs (Some vs)) vs j <> Crash /\
  forall st, run_method decf zero (default_val dv_fuel) (Some fs) (TStruct (c :: name) fs (Some vs)) vs j = Ok st ->
             vshape (TStruct (c :: name) fs (Some vs)) st = true.
Proof.
  intros Hn Hv Ha Hbr Hg.
  apply run_method_safe with (ft := ft_struct fs); [apply struct_typed|exact Hv|exact Hbr|apply plain_fields_safe, Hg|].
  intros raw st Hraw Hs. apply addl_block_safe; auto. intros fa Hf. unfold addl_ok in Ha. rewrite Hf in Ha.
  apply andb_true_iff in Ha. destruct Ha as [Hr Hty]. split; [exact (Hraw Hr)|]. destruct (f_ty fa); try discriminate. reflexivity.
Qed.

Lemma named_method_safe decf u vs j :
  forallb (v_ok (ft_named u)) vs = true -> branches_safe decf vs -> dec_good decf u ->
  run_method decf zero (default_val dv_fuel) None u vs j <> Crash /\
  forall st, run_method decf zero (default_val dv_fuel) None u vs j = Ok st -> vshape u st = true.
Proof.
  intros Hv Hbr Hg. apply (run_method_safe decf _ _ None _ _ _ (named_typed u _ (fun _ H => H)) Hv Hbr (Hg j)).
  intros raw st _ Hs. apply osafe_intro. exact Hs.
Qed.

Theorem dec_safe : env_wf -> forall f t, wf_ty t = true -> dec_good (dec f) t.
Proof.
  intros Henv. induction f as [|f IH]; intros t Hw x; [apply osafe_intro; exact I|].
  destruct t as [| | |k| | |fk|u|inl e|e|name fs plan|name u plan|name c w vals|def]; cbn [Exec.dec].
  (* the seven scalar types: a match on the document; what is left is the test of TInt and of TFmt *)
  1-7: apply osafe_intro; destruct x; cbn; trivial.
  - (* TInt *) destruct (nlit_int n && Qis_int (nq n) && in_range k (Qfloor_z (nq n))); cbn; trivial.
  - (* TFmt *) destruct (fmt_ok fk s); cbn; trivial.
  - (* TPtr *)
    cbn [wf_ty] in Hw. destruct x; try (apply osafe_intro; reflexivity);
      (apply (osafe_bind _ _ _ _ (IH u Hw _)); intros v Hv; apply osafe_intro; exact Hv).
  - (* TSlice *)
    cbn [wf_ty] in Hw. destruct x; try solve [apply osafe_intro; cbn; trivial].
    apply (osafe_bind (Forall2 (fun _ v => vshape e v = true) l)); [apply osafe_omap; intros y _; exact (IH e Hw y)|].
    intros vs Hvs. apply osafe_intro, forallb_forall, Forall_forall. exact (Forall2_Forall_r _ _ _ _ Hvs (fun _ _ _ E => E)).
  - (* TMap *)
    cbn [wf_ty] in Hw. destruct x; try solve [apply osafe_intro; cbn; trivial].
    apply (osafe_bind (Forall2 (fun _ _ => True) kv)); [apply osafe_omap; intros p _|intros m _; apply osafe_intro; reflexivity].
    apply (osafe_bind _ _ _ _ (IH e Hw (snd p))). intros v _. apply osafe_intro. exact I.
  - (* TStruct: the typed decode alone, or the method when the struct is named and has one *)
    rewrite wf_ty_struct in Hw. apply andb_true_iff in Hw. destruct Hw as [Hw Hplan]. apply andb_true_iff in Hw. destruct Hw as [Hfw Hn].
    assert (Hg : forall fl, In fl fs -> dec_good (dec f) (f_ty fl)) by (intros fl Hin; apply IH, (fields_all_In _ fs fl Hfw Hin)).
    destruct name as [|ch name]; [exact (plain_fields_safe (dec f) [] fs plan x Hg)|].
    destruct plan as [vs|]; [|exact (plain_fields_safe (dec f) (ch :: name) fs None x Hg)].
    apply andb_true_iff in Hplan. destruct Hplan as [Hplan Hbw]. apply andb_true_iff in Hplan. destruct Hplan as [Hv Ha].
    apply struct_method_safe; try assumption.
    intros bs bt Hin Hbt y. apply (IH bt (branches_all_In _ vs bs bt Hbw Hin Hbt) y).
  - (* TNamed *)
    cbn [wf_ty] in Hw. apply andb_true_iff in Hw. destruct Hw as [Hu Hplan].
    destruct plan as [vs|]; [|exact (IH u Hu x)].
    apply andb_true_iff in Hplan. destruct Hplan as [Hplan Hno].
    apply (named_method_safe (dec f) u vs x Hplan); [|exact (IH u Hu)].
    (* no anyOf among the validators of a named type *)
    intros bs bt Hin. apply negb_true_iff in Hno. discriminate (existsb_false_In _ vs _ Hno Hin).
  - (* TEnum *)
    cbn [wf_ty] in Hw. apply (osafe_bind _ _ _ _ (IH c Hw x)). intros v _. apply osafe_intro. destruct (existsb _ _); cbn; trivial.
  - (* TRef *)
    cbn [wf_ty] in Hw. destruct (lookup def env) as [u|] eqn:E; [|discriminate].
    split; [exact (proj1 (IH u (Henv def u E) x))|reflexivity].
Qed.

(* the statement of C19 (totality): for every document and every fuel *)
Theorem dec_never_panics : env_wf -> forall f t j, wf_ty t = true -> dec f t j <> Crash.
Proof. intros Henv f t j Hw. apply (dec_safe Henv f t Hw j). Qed.
End Wf.
