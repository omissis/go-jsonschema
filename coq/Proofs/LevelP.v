(* One level of an object schema, end to end and in both directions: IF the checks the generator attaches to every
   property are exact on that property's values (which C05 / C06 / C07 prove for scalars, strings and arrays under their
   own conditions, and which this very theorem provides for a nested object), THEN the struct generated for the object
   accepts a JSON object iff it is valid under the schema (Spec/Valid.v).  Field-wise form first (any checks-only method),
   then the generated struct against the reference semantics. *)
From GJS Require Import Base Bounds Regex Schema SchemaP GoType Gen Exec Valid ValidP ExecP GenP MethodP.

Section Fieldwise.
Variable decf : gty -> json -> outcome gval.
Variable zf : gty -> gval.
Variable dvf : gty -> json -> option gval.

Definition value_checks (ws : list validator) (fname : str) (v : gval) : bool :=
  forallb (fun w => is_ok (after_step dvf None (GSt [(fname, v)]) w)) ws.

Lemma value_checks_app a b fname v : value_checks (a ++ b) fname v = value_checks a fname v && value_checks b fname v.
Proof. apply forallb_app. Qed.

Lemma value_check_string fname jn mn mx p s : fname <> [] ->
  value_checks [VString fname jn false mn mx p] fname (GS s) = spec_string_bytes mn mx p s.
Proof.
  intros Hn. unfold value_checks. cbn [forallb]. rewrite (vstring_at dvf None _ fname jn false mn mx p s (get_plain_single _ _ Hn)), andb_true_r.
  destruct (spec_string_bytes mn mx p s); reflexivity.
Qed.

Lemma value_check_numeric fname jn rnd mult b x q : fname <> [] -> num_of x = Some q ->
  value_checks [VNumeric fname jn false rnd mult b] fname x = accept_numeric rnd mult b q.
Proof.
  intros Hn Hq. unfold value_checks. cbn [forallb]. rewrite (vnumeric_at dvf None _ fname jn false rnd mult b x q (get_plain_single _ _ Hn) Hq), andb_true_r.
  destruct (accept_numeric rnd mult b q); reflexivity.
Qed.

Lemma value_check_array fname jn d mn mx v : fname <> [] -> d <> 0 -> slice_shaped d v = true ->
  value_checks [VArray fname jn d mn mx] fname v = levels_ok d mn mx v.
Proof.
  intros Hn Hd Hs. unfold value_checks. cbn [forallb]. rewrite (varray_value dvf None _ fname jn d mn mx v Hd (get_plain_single _ _ Hn) Hs), andb_true_r.
  destruct (levels_ok d mn mx v); reflexivity.
Qed.

Definition nil_ok (w : validator) : bool :=
  match w with
  | VString _ _ nl _ _ _ | VNumeric _ _ nl _ _ _ => nl
  | VArray _ _ d _ _ => negb (d =? 0)
  | VNullType _ _ _ => true
  | _ => false
  end.

Lemma value_check_nil w fname : fname <> [] -> v_fname w = fname -> nil_ok w = true -> value_checks [w] fname GNil = true.
Proof.
  intros Hn Hf Hw. unfold value_checks. cbn [forallb]. rewrite andb_true_r.
  destruct w; try discriminate Hw; cbn [v_fname nil_ok] in Hf, Hw; subst; cbn [after_step]; rewrite (get_plain_single _ _ Hn).
  - (* VNullType *) destruct depth; reflexivity.
  - (* VArray *) apply negb_true_iff, Nat.eqb_neq in Hw. destruct depth as [|[|d]]; [contradiction| |]; reflexivity.
  - (* VString *) reflexivity.
  - (* VNumeric *) reflexivity.
Qed.

Lemma value_check_string_ptr fname jn mn mx p v : fname <> [] ->
  value_checks [VString fname jn true mn mx p] fname (GP v) = value_checks [VString fname jn false mn mx p] fname v.
Proof.
  intros Hn. unfold value_checks. cbn [forallb after_step]. rewrite !(get_plain_single _ _ Hn).
  destruct v; try reflexivity; [destruct (check_string _ _ _ _)|destruct v]; reflexivity.
Qed.

Lemma value_check_numeric_ptr fname jn rnd mult b v : fname <> [] ->
  value_checks [VNumeric fname jn true rnd mult b] fname (GP v) = value_checks [VNumeric fname jn false rnd mult b] fname v.
Proof.
  intros Hn. unfold value_checks. cbn [forallb after_step]. rewrite !(get_plain_single _ _ Hn).
  destruct v; try reflexivity; cbn [num_of]; destruct (accept_numeric _ _ _ _); reflexivity.
Qed.

Lemma after_step_local raw st w fname x :
  check_only w = true -> v_fname w = fname -> fname <> [] -> get_plain fname st = Some x ->
  is_ok (after_step dvf raw st w) = is_ok (after_step dvf None (GSt [(fname, x)]) w).
Proof.
  intros Hc Hf Hn Hg. rewrite (check_frame dvf raw None st (GSt [(fname, x)]) w (check_only_has_error w Hc)); [apply is_ok_map|].
  rewrite Hf, Hg. symmetry. exact (get_plain_single fname x Hn).
Qed.

Lemma checks_local raw st ws fname x : Forall (own fname) ws -> fname <> [] -> get_plain fname st = Some x ->
  forallb (fun w => is_ok (after_step dvf raw st w)) ws = value_checks ws fname x.
Proof.
  intros Hws Hn Hg. apply forallb_ext_in. intros w Hw. rewrite Forall_forall in Hws. destruct (Hws w Hw) as [Hc [Hf _]].
  exact (after_step_local raw st w fname x Hc Hf Hn Hg).
Qed.

Definition local_info (i : field * list validator) : Prop :=
  f_addl (fst i) = false /\ f_name (fst i) <> [] /\
  Forall (own (f_name (fst i))) (snd i).

(* one field against the document: the value under its key decodes into its type and passes its checks; without the key, the zero value passes
   them.  The hypothesis of [level_exact] is that this is validity of the property's value *)
Definition field_ok (kv : list (str * json)) (i : field * list validator) : bool :=
  match lookup (f_json (fst i)) kv with
  | Some x => match decf (f_ty (fst i)) x with Ok v => value_checks (snd i) (f_name (fst i)) v | _ => false end
  | None => value_checks (snd i) (f_name (fst i)) (zf (f_ty (fst i)))
  end.

Theorem after_fieldwise raw (infos : list (field * list validator)) kv st :
  NoDup (map (fun i => f_name (fst i)) infos) -> Forall local_info infos ->
  plain_fields decf zf (map fst infos) (JObj kv) = Ok st ->
  forallb (fun w => is_ok (after_step dvf raw st w)) (flat_map snd infos) = forallb (field_ok kv) infos.
Proof.
  intros Hnd Hloc Hst. rewrite forallb_flat_map. apply forallb_ext_in. intros i Hi.
  rewrite Forall_forall in Hloc. destruct (Hloc i Hi) as [Ha [Hn Hws]].
  assert (Hnd' : NoDup (map f_name (map fst infos))) by (rewrite map_map; exact Hnd).
  destruct (plain_fields_get decf zf _ kv (fst i) st Hnd' (List.in_map fst _ _ Hi) Hn Hst) as (v & Hg & Hv).
  rewrite (checks_local raw st (snd i) _ v Hws Hn Hg). unfold field_ok. unfold field_value in Hv. rewrite Ha in Hv.
  destruct (lookup (f_json (fst i)) kv) as [x|]; [rewrite Hv|inversion Hv]; reflexivity.
Qed.

Lemma undecodable_field (infos : list (field * list validator)) kv :
  is_ok (plain_fields decf zf (map fst infos) (JObj kv)) = false -> forallb (field_ok kv) infos = false.
Proof.
  intros Hno. apply not_true_is_false. intros E. apply not_true_iff_false in Hno. apply Hno, plain_fields_is_ok. rewrite forallb_map.
  revert E. apply forallb_impl. intros i _ Hi. unfold field_decodes, field_ok in *.
  destruct (f_addl (fst i)); [reflexivity|]. destruct (lookup (f_json (fst i)) kv); [|reflexivity].
  destruct (decf (f_ty (fst i)) j); try discriminate Hi. reflexivity.
Qed.

Definition is_required (v : validator) : bool := match v with VRequired _ => true | _ => false end.

Lemma required_of_locals (infos : list (field * list validator)) : Forall local_info infos -> required_of (flat_map snd infos) = [].
Proof.
  intros H. apply flat_map_nil. intros w Hw. apply in_flat_map in Hw. destruct Hw as (i & Hi & Hwi).
  rewrite Forall_forall in H. destruct (H i Hi) as (_ & _ & Hws). rewrite Forall_forall in Hws. destruct (Hws w Hwi) as (_ & _ & Hnr).
  destruct w; try reflexivity. exfalso. exact (Hnr jname eq_refl).
Qed.

Lemma check_only_locals (infos : list (field * list validator)) : Forall local_info infos -> forallb check_only (flat_map snd infos) = true.
Proof.
  intros H. rewrite forallb_flat_map. apply forallb_forall. intros i Hi. rewrite Forall_forall in H.
  destruct (H i Hi) as (_ & _ & Hws). exact (own_check_only _ _ Hws).
Qed.

Theorem method_fieldwise (reqs : list validator) (infos : list (field * list validator)) under kv :
  forallb is_required reqs = true ->
  NoDup (map (fun i => f_name (fst i)) infos) -> Forall local_info infos ->
  is_ok (run_method decf zf dvf (Some (map fst infos)) under (reqs ++ flat_map snd infos) (JObj kv)) =
    forallb (has_key kv) (required_of reqs) && forallb (field_ok kv) infos.
Proof.
  intros Hr Hnd Hloc.
  assert (Hco : forallb check_only (reqs ++ flat_map snd infos) = true).
  { rewrite forallb_app, (check_only_locals _ Hloc), andb_true_r. apply (forallb_impl is_required); [|exact Hr].
    intros v _ Hv. destruct v; try discriminate; reflexivity. }
  assert (Hna : find f_addl (map fst infos) = None).
  { apply find_all_false. intros fl Hfl. apply in_map_iff in Hfl. destruct Hfl as (i & <- & Hi). rewrite Forall_forall in Hloc. apply (Hloc i Hi). }
  rewrite (method_exact decf zf dvf _ under _ kv Hco Hna), (before_checks_exact decf _ kv Hco), required_of_app, (required_of_locals _ Hloc), app_nil_r.
  f_equal. destruct (plain_fields decf zf (map fst infos) (JObj kv)) as [st| | |] eqn:Ep.
  2-4: symmetry; apply undecodable_field; rewrite Ep; reflexivity.
  rewrite forallb_app, (after_fieldwise _ infos kv st Hnd Hloc Ep).
  assert (Hq : forall raw, forallb (fun w => is_ok (after_step dvf raw st w)) reqs = true).
  { intros raw. apply (forallb_impl is_required); [|exact Hr]. intros v _ Hv. destruct v; try discriminate; reflexivity. }
  rewrite Hq. reflexivity.
Qed.
End Fieldwise.

Definition pair_of (i : finfo) : field * list validator := (fst (fst i), snd i).

Lemma make_field_local defs c self fname k p ty bp : c_default (s_con p) = None -> fname <> [] ->
  local_info (pair_of (make_field defs c self fname k p ty bp)).
Proof.
  intros Hd Hn. rewrite (make_field_no_default defs _ _ _ _ _ _ _ Hd). unfold pair_of, local_info. cbn [fst snd f_addl f_name].
  repeat split; try assumption. apply field_validators_own.
Qed.

Section Contract.
Variable defs : list (str * schema).
Variable fmt_ok : fmtk -> str -> bool.
Variable env : list (str * gty).
Notation dec := (Exec.dec fmt_ok env).
Notation dvf := (default_val env dv_fuel).
Variables (fname k : str) (p : schema) (bp : bounds).
Hypothesis Hn : fname <> [].

Definition accepts (fd : nat) (ty : gty) (x : json) : bool :=
  match dec fd ty x with Ok v => value_checks dvf (field_validators fname k (s_con p) bp ty false) fname v | _ => false end.

Lemma accepts_plain fd ty x : field_validators fname k (s_con p) bp ty false = [] -> accepts fd ty x = is_ok (dec fd ty x).
Proof. intros H. unfold accepts. rewrite H. destruct (dec fd ty x); reflexivity. Qed.

Lemma array_checks_nil mn mx t : forall d, d <> 0 -> value_checks dvf (array_validators fname k mn mx d t) fname GNil = true.
Proof.
  induction t as [| | | | | | |?|inl e IH|?|? ? ?|? ? ?|? ? ? ?|?]; intros d Hd; try reflexivity.
  destruct inl; [|reflexivity].
  destruct (array_validators_cases fname k mn mx d e) as [[_ ->] | ->].
  - apply (value_check_nil dvf _ fname Hn); reflexivity.
  - rewrite value_checks_app, (IH (S d)), andb_true_r by discriminate. destruct (negb _ || _); [|reflexivity].
    apply (value_check_nil dvf _ fname Hn); [reflexivity|]. apply negb_true_iff, Nat.eqb_neq. exact Hd.
Qed.

Lemma nil_checks ty : value_checks dvf (field_validators fname k (s_con p) bp ty true) fname GNil = true.
Proof.
  induction ty as [| | | | | | |u IH|inl e _|?|? ? ?|? ? ?|? ? ? ?|?]; cbn [field_validators]; try reflexivity; try exact IH.
  - (* TString *) destruct (has_string_kw (s_con p)); [apply (value_check_nil dvf _ fname Hn); reflexivity|reflexivity].
  - (* TFloat *) destruct (has_bound_kw _ _); [apply (value_check_nil dvf _ fname Hn); reflexivity|reflexivity].
  - (* TInt *) destruct (has_bound_kw _ _); [apply (value_check_nil dvf _ fname Hn); reflexivity|reflexivity].
  - (* TNullT *) apply (value_check_nil dvf _ fname Hn); reflexivity.
  - (* TSlice *) destruct inl; [|reflexivity]. apply array_checks_nil. discriminate.
Qed.

Lemma ptr_checks rn ty v : nillable_ty rn ty = false -> value_checks dvf (field_validators fname k (s_con p) bp ty true) fname (GP v) = value_checks dvf (field_validators fname k (s_con p) bp ty false) fname v.
Proof.
  intros Hnl. destruct ty; try discriminate Hnl; cbn [field_validators]; try reflexivity.
  - (* TString *) destruct (has_string_kw (s_con p)); [exact (value_check_string_ptr dvf _ _ _ _ _ v Hn)|reflexivity].
  - (* TFloat *) destruct (has_bound_kw _ _); [exact (value_check_numeric_ptr dvf _ _ _ _ _ v Hn)|reflexivity].
  - (* TInt *) destruct (has_bound_kw _ _); [exact (value_check_numeric_ptr dvf _ _ _ _ _ v Hn)|reflexivity].
Qed.

Lemma zero_checks rn ty : nillable_ty rn ty = true -> value_checks dvf (field_validators fname k (s_con p) bp ty false) fname (zero ty) = true.
Proof.
  intros Hnl. destruct ty as [| | | | | | |u|inl e|?|? ? ?|? u ?|? ? ? ?|?]; try discriminate Hnl; cbn [field_validators zero]; try reflexivity.
  - (* TNullT *) apply (value_check_nil dvf _ fname Hn); reflexivity.
  - (* TPtr *) apply nil_checks.
  - (* TSlice *) destruct inl; [|reflexivity]. apply array_checks_nil. discriminate.
Qed.

Variables (c : scon) (self : option str).
Hypothesis Hd : c_default (s_con p) = None.

Lemma field_absent fd ty kv : lookup k kv = None -> mem k (c_required c) = false ->
  field_ok (dec fd) zero dvf kv (pair_of (make_field defs c self fname k p ty bp)) = true.
Proof.
  intros Hl Hm. rewrite (make_field_no_default defs _ _ _ _ _ _ _ Hd), Hm. unfold pair_of, field_ok. cbn [orb fst snd f_json f_ty f_name]. rewrite Hl.
  destruct (nillable_ty (ref_nillable defs self) ty) eqn:E; [exact (zero_checks _ ty E)|exact (nil_checks ty)].
Qed.

(* required: the type itself; optional: a pointer to it unless it is nillable, and the pointer's checks are the type's own *)
Lemma field_present fd ty kv x : lookup k kv = Some x -> x <> JNull ->
  field_ok (dec (S fd)) zero dvf kv (pair_of (make_field defs c self fname k p ty bp)) =
  accepts (if mem k (c_required c) || nillable_ty (ref_nillable defs self) ty then S fd else fd) ty x.
Proof.
  intros Hl Hx. rewrite (make_field_no_default defs _ _ _ _ _ _ _ Hd). unfold pair_of, field_ok, accepts. cbn [fst snd f_json f_ty f_name]. rewrite Hl.
  destruct (mem k (c_required c) || nillable_ty (ref_nillable defs self) ty) eqn:E; [reflexivity|]. apply orb_false_iff in E. destruct E as [_ E].
  rewrite (dec_ptr fmt_ok env fd ty x Hx). cbn [field_validators].
  destruct (dec fd ty x) as [v| | |]; cbn [obind]; [exact (ptr_checks _ ty v E)|reflexivity..].
Qed.
End Contract.

Section Level.
Variable idf : str -> str.
Variable cf : cfg.
Variable defs : list (str * schema).
Variable fmt_ok : fmtk -> str -> bool.
Variable env : list (str * gty).
Variable sdefs : list (str * schema).
Notation gen := (Gen.gen idf cf defs).
Notation dec := (Exec.dec fmt_ok env).
Notation valid := (Valid.valid fmt_ok sdefs).

Lemma required_checks_members rec c self scope props infos :
  (forall k p, In (k, p) props -> c_default (s_con p) = None) -> incl (c_required c) (map fst props) ->
  Forall2 (field_of defs rec c self scope) (prop_names idf props) infos ->
  forall k, In k (required_of (flat_map (fun i : finfo => if snd (fst i) then [VRequired (f_json (fst (fst i)))] else []) infos)) <-> In k (c_required c).
Proof.
  intros Hd Hreq HF k.
  assert (Hmf : forall np i, In np (prop_names idf props) -> field_of defs rec c self scope np i ->
            f_json (fst (fst i)) = fst (snd np) /\ snd (fst i) = mem (fst (snd np)) (c_required c)).
  { intros [fname [k0 p]] i Hin (ty & bp & _ & ->). rewrite (make_field_no_default defs _ _ _ _ _ _ _ (Hd k0 p (prop_names_In_inv idf _ _ Hin))). split; reflexivity. }
  unfold required_of. rewrite in_flat_map. split.
  - intros [v [Hv Hk]]. apply in_flat_map in Hv. destruct Hv as [i [Hi Hvi]].
    destruct (Forall2_In_r _ _ _ i HF Hi) as [np [Hnpi Hfo]]. destruct (Hmf np i Hnpi Hfo) as (Hj & Hrq).
    rewrite Hrq, Hj in Hvi. destruct (mem (fst (snd np)) (c_required c)) eqn:Em; [|contradiction].
    destruct Hvi as [<-|[]]. destruct Hk as [<-|[]]. apply mem_In. exact Em.
  - intros Hk. pose proof (Hreq k Hk) as Hkeys. apply in_map_iff in Hkeys. destruct Hkeys as [[k0 p] [Hk0 Hin]]. cbn [fst] in Hk0. subst k0.
    destruct (prop_names_In idf props k p Hin) as [fname Hnpi].
    destruct (Forall2_In_l _ _ _ (fname, (k, p)) HF Hnpi) as [i [Hi Hfo]]. destruct (Hmf _ i Hnpi Hfo) as (Hj & Hrq). cbn [fst snd] in Hj, Hrq.
    exists (VRequired k). split; [|left; reflexivity]. apply in_flat_map. exists i. split; [exact Hi|].
    rewrite Hrq, Hj. apply mem_In in Hk. rewrite Hk. left; reflexivity.
Qed.

Lemma declared_struct_fieldwise f fd self sub s scope t b kv :
  g_only_models cf = false -> scope <> [] -> plain_object s -> s_addl s = None ->
  (forall k p, In (k, p) (s_props s) -> c_default (s_con p) = None) ->
  incl (c_required (s_con s)) (map fst (s_props s)) ->
  NoDup (map fst (prop_names idf (s_props s))) -> (forall fname kp, In (fname, kp) (prop_names idf (s_props s)) -> fname <> []) ->
  gen (S (S f)) MDeclared self sub s scope = Done (t, b) ->
  exists infos,
    Forall2 (field_of defs (fun p sc => gen f MInline self false p sc) (s_con s) self scope) (prop_names idf (s_props s)) infos /\
    is_ok (dec (S fd) t (JObj kv)) =
      forallb (has_key kv) (c_required (s_con s)) && forallb (field_ok (dec fd) zero (default_val env dv_fuel) kv) (map pair_of infos).
Proof.
  intros Hom Hsc Hp Ha Hd Hreq Nnames Hne Hg. pose proof Hp as (He & _).
  rewrite gen_declared, He in Hg.
  destruct (gen (S f) MType self sub s scope) as [[t0 b0]| | |] eqn:Eg; cbn [rbind] in Hg; try discriminate.
  destruct (gen_object_struct idf cf defs f self sub s scope t0 b0 Hp Ha Eg) as (infos & HF & ->). exists infos. split; [exact HF|].
  set (fields := map (fun i : finfo => fst (fst i)) infos) in *.
  set (reqs := flat_map (fun i : finfo => if snd (fst i) then [VRequired (f_json (fst (fst i)))] else []) infos) in *.
  set (fvs := flat_map (fun i : finfo => snd i) infos) in *.
  rewrite declare_struct, Hom in Hg.
  set (infos' := map pair_of infos).
  assert (Hfields : map fst infos' = fields) by (unfold infos', fields; rewrite map_map; reflexivity).
  assert (Hfvs : flat_map snd infos' = fvs) by (unfold infos', fvs; rewrite !flat_map_concat_map, map_map; reflexivity).
  assert (Hloc : Forall local_info infos').
  { apply Forall_map. apply (Forall2_Forall_r _ _ _ _ HF). intros [fname [k p]] i Hin (ty & bp & _ & ->).
    apply make_field_local; [exact (Hd k p (prop_names_In_inv idf _ _ Hin))|exact (Hne _ _ Hin)]. }
  assert (Hreqs : forallb is_required reqs = true).
  { unfold reqs. destruct (required_checks infos) as [ks ->]. rewrite forallb_map. apply forallb_true. }
  assert (Hnd' : NoDup (map (fun i => f_name (fst i)) infos')).
  { unfold infos'. rewrite map_map. unfold pair_of. cbn [fst]. rewrite (fields_of_names defs _ _ _ _ _ _ HF). exact Nnames. }
  rewrite <- (forallb_same_members (has_key kv) _ _ (required_checks_members _ (s_con s) self scope (s_props s) infos Hd Hreq HF)). fold reqs.
  destruct scope as [|c0 n0]; [contradiction|].
  destruct (sub || negb (length (reqs ++ fvs) =? 0)) eqn:Eplan; inversion Hg; subst t b; cbn [Exec.dec].
  - (* the struct keeps its method *)
    rewrite <- Hfields, <- Hfvs. exact (method_fieldwise (dec fd) zero (default_val env dv_fuel) reqs infos' _ kv Hreqs Hnd' Hloc).
  - (* no validator at all: the struct has no method *)
    apply orb_false_iff in Eplan. destruct Eplan as [_ El]. apply negb_false_iff in El. apply Nat.eqb_eq in El. apply length_zero_iff_nil in El.
    pose proof (fields_of_not_addl defs _ _ _ _ _ _ HF : find f_addl fields = None) as Hna.
    rewrite <- (run_method_nil (dec fd) zero (default_val env dv_fuel) fields (TStruct (c0 :: n0) fields None) (JObj kv) Hna).
    rewrite <- El at 1. rewrite <- Hfields, <- Hfvs. exact (method_fieldwise (dec fd) zero (default_val env dv_fuel) reqs infos' _ kv Hreqs Hnd' Hloc).
Qed.

(* one object level: the declared struct accepts an object iff it is valid, GIVEN that each generated field is ok ([field_ok]) exactly on the
   valid values of its property; keys that are absent need no hypothesis ([field_absent]) *)
Theorem level_exact f fd fv self sub s scope t b kv :
  g_only_models cf = false -> scope <> [] ->
  plain_object s -> c_types (s_con s) = [SObject] -> s_addl s = None -> s_addl_false s = false ->
  (forall k p, In (k, p) (s_props s) -> c_default (s_con p) = None) ->
  NoDup (map fst (s_props s)) -> NoDup (map fst kv) ->
  incl (c_required (s_con s)) (map fst (s_props s)) ->
  NoDup (map fst (prop_names idf (s_props s))) -> (forall fname kp, In (fname, kp) (prop_names idf (s_props s)) -> fname <> []) ->
  gen (S (S f)) MDeclared self sub s scope = Done (t, b) ->
  (forall fname k p ty bp x, In (fname, (k, p)) (prop_names idf (s_props s)) ->
     gen f MInline self false p (scope ++ fname) = Done (ty, bp) -> lookup k kv = Some x ->
     field_ok (dec fd) zero (default_val env dv_fuel) kv (pair_of (make_field defs (s_con s) self fname k p ty bp)) = valid fv p x) ->
  is_ok (dec (S fd) t (JObj kv)) = valid (S fv) s (JObj kv).
Proof.
  intros Hom Hsc Hp Hty Ha Haf Hd Nprops Nkv Hreq Nnames Hne Hg Hfield.
  destruct (declared_struct_fieldwise f fd self sub s scope t b kv Hom Hsc Hp Ha Hd Hreq Nnames Hne Hg) as (infos & HF & ->).
  pose proof Hp as (He & Hr & _ & _ & Hall & Hany). rewrite (valid_plain_object fmt_ok sdefs fv s kv Hr He Hty Hall Hany Ha Haf Nprops Nkv). fold (has_key kv).
  destruct (forallb (has_key kv) (c_required (s_con s))) eqn:EP; [|reflexivity]. cbn [andb].
  assert (Habs : forall k, lookup k kv = None -> mem k (c_required (s_con s)) = false).
  { intros k Hl. destruct (mem k (c_required (s_con s))) eqn:Em; [|reflexivity]. apply mem_In in Em. rewrite forallb_forall in EP. specialize (EP k Em). unfold has_key in EP. rewrite Hl in EP. discriminate. }
  (* field by field, then from the named properties back to the properties *)
  transitivity (forallb (fun np : str * (str * schema) => match lookup (fst (snd np)) kv with Some x => valid fv (snd (snd np)) x | None => true end) (prop_names idf (s_props s))).
  - rewrite forallb_map. symmetry. apply (forallb_Forall2 _ _ _ _ _ HF). intros [fname [k p]] i Hin (ty & bp & Hgen & ->). cbn [fst snd].
    destruct (lookup k kv) as [x|] eqn:El; symmetry.
    + exact (Hfield fname k p ty bp x Hin Hgen El).
    + exact (field_absent defs fmt_ok env fname k p bp (Hne _ _ Hin) (s_con s) self (Hd k p (prop_names_In_inv idf _ _ Hin)) fd ty kv El (Habs k El)).
  - rewrite <- (forallb_map snd (fun kp : str * schema => match lookup (fst kp) kv with Some x => valid fv (snd kp) x | None => true end)), prop_names_snd.
    apply forallb_same_members. intros x. apply sort_props_In.
Qed.
End Level.

Theorem level_of_values idf cf defs fmt_ok env sdefs f fd fv self sub s scope t b (kv : list (str * json)) :
  g_only_models cf = false -> scope <> [] ->
  plain_object s -> c_types (s_con s) = [SObject] -> s_addl s = None -> s_addl_false s = false ->
  (forall k p, In (k, p) (s_props s) -> c_default (s_con p) = None) ->
  NoDup (map fst (s_props s)) -> NoDup (map fst kv) ->
  incl (c_required (s_con s)) (map fst (s_props s)) ->
  NoDup (map fst (prop_names idf (s_props s))) -> (forall fname kp, In (fname, kp) (prop_names idf (s_props s)) -> fname <> []) ->
  Gen.gen idf cf defs (S (S f)) MDeclared self sub s scope = Done (t, b) ->
  (forall fname k p ty bp (x : json), In (k, p) (s_props s) -> fname <> [] ->
     Gen.gen idf cf defs f MInline self false p (scope ++ fname) = Done (ty, bp) -> lookup k kv = Some x ->
     x <> JNull /\
     accepts fmt_ok env fname k p bp (if mem k (c_required (s_con s)) || nillable_ty (ref_nillable defs self) ty then S fd else fd) ty x = Valid.valid fmt_ok sdefs fv p x) ->
  is_ok (Exec.dec fmt_ok env (S (S fd)) t (JObj kv)) = Valid.valid fmt_ok sdefs (S fv) s (JObj kv).
Proof.
  intros Hom Hsc Hp Hty Ha Haf Hd Np Nk Hreq Nn Hne Hg Hval.
  apply (level_exact idf cf defs fmt_ok env sdefs f (S fd) fv self sub s scope t b kv); try assumption.
  intros fname k p ty bp x Hin Hgen El. pose proof (prop_names_In_inv idf _ _ Hin) as Hinp. pose proof (Hne _ _ Hin) as Hfn.
  destruct (Hval fname k p ty bp x Hinp Hfn Hgen El) as [Hnull <-].
  exact (field_present defs fmt_ok env fname k p bp Hfn (s_con s) self (Hd k p Hinp) fd ty kv x El Hnull).
Qed.

Section StringObjects.
Variable idf : str -> str.
Variable cf : cfg.
Variable defs : list (str * schema).
Variable fmt_ok : fmtk -> str -> bool.
Variable env : list (str * gty).
Variable sdefs : list (str * schema).
Notation gen := (Gen.gen idf cf defs).
Notation dec := (Exec.dec fmt_ok env).
Notation valid := (Valid.valid fmt_ok sdefs).

Definition str_leaf (p : schema) : Prop :=
  exists c, p = Sch c [] None false None [] [] /\ c_types c = [SString] /\ c_ref c = None /\ c_enum c = None /\ c_default c = None /\ c_format c = None.

Lemma gen_str_leaf f self sc p ty bp : str_leaf p -> gen (S f) MInline self false p sc = Done (ty, bp) -> ty = TString /\ bp = c_bounds (s_con p).
Proof.
  intros (c & -> & Ht & Hr & He & _ & Hf) H. rewrite gen_inline_typed with (t := SString) in H by first [assumption | reflexivity].
  cbn [is_prim_sty primitive s_con] in H. rewrite Hf in H. inversion H. split; reflexivity.
Qed.

Definition ascii_value (x : json) : Prop := x <> JNull /\ forall s, x = JStr s -> utf8_len s = length s.

Lemma spec_string_none s : spec_string 0 0 None s = true.
Proof. reflexivity. Qed.

Lemma valid_str_leaf fv p x : str_leaf p -> valid (S fv) p x =
  match x with JStr s => spec_string (c_min_len (s_con p)) (c_max_len (s_con p)) (c_pattern (s_con p)) s | _ => false end.
Proof.
  intros (c & -> & Ht & Hr & He & _ & Hf). rewrite (valid_typed fmt_ok sdefs fv c _ _ _ _ SString x Hr Ht), He.
  destruct x; try reflexivity. cbn [type_matches andb keywords s_con]. rewrite Hf. unfold spec_string. rewrite andb_true_r. reflexivity.
Qed.

Lemma str_leaf_exact f g fv self sc fname k p ty bp x : str_leaf p -> gen (S f) MInline self false p sc = Done (ty, bp) -> fname <> [] -> ascii_value x ->
  accepts fmt_ok env fname k p bp (S g) ty x = valid (S fv) p x.
Proof.
  intros Hleaf Hgen Hn [Hnull Hascii]. destruct (gen_str_leaf f self sc p ty bp Hleaf Hgen) as [-> ->].
  rewrite (valid_str_leaf fv p x Hleaf). unfold accepts.
  destruct x; try contradiction; cbn [Exec.dec]; try reflexivity.
  cbn [field_validators]. destruct (has_string_kw (s_con p)) eqn:Ek.
  - rewrite (value_check_string _ fname k _ _ _ s Hn). unfold spec_string_bytes, spec_string. rewrite (Hascii s eq_refl). reflexivity.
  - rewrite (no_string_kw _ s Ek). reflexivity.
Qed.

Lemma str_leaf_default p : str_leaf p -> c_default (s_con p) = None.
Proof. intros (c & -> & _ & _ & _ & Hd & _). exact Hd. Qed.

(* an object whose properties are all constrained strings: accepted iff valid, for every document whose values are not null and whose strings are ASCII *)
Theorem string_object_exact f fd fv self sub s scope t b kv :
  g_only_models cf = false -> scope <> [] ->
  plain_object s -> c_types (s_con s) = [SObject] -> s_addl s = None -> s_addl_false s = false ->
  (forall k p, In (k, p) (s_props s) -> str_leaf p) ->
  NoDup (map fst (s_props s)) -> NoDup (map fst kv) ->
  incl (c_required (s_con s)) (map fst (s_props s)) ->
  NoDup (map fst (prop_names idf (s_props s))) -> (forall fname kp, In (fname, kp) (prop_names idf (s_props s)) -> fname <> []) ->
  (forall k x, In (k, x) kv -> ascii_value x) ->
  gen (S (S (S f))) MDeclared self sub s scope = Done (t, b) ->
  is_ok (dec (S (S (S fd))) t (JObj kv)) = valid (S (S fv)) s (JObj kv).
Proof.
  intros Hom Hsc Hp Hty Ha Haf Hleaf Np Nk Hreq Nn Hne Hascii Hg.
  apply (level_of_values idf cf defs fmt_ok env sdefs (S f) (S fd) (S fv) self sub s scope t b kv Hom Hsc Hp Hty Ha Haf); try assumption.
  - intros k p Hin. exact (str_leaf_default p (Hleaf k p Hin)).
  - intros fname k p ty bp x Hinp Hfn Hgen El. pose proof (Hleaf k p Hinp) as Hl. pose proof (Hascii k x (lookup_In _ _ _ El)) as Hx.
    split; [exact (proj1 Hx)|]. destruct (_ || _); exact (str_leaf_exact f _ fv self _ fname k p ty bp x Hl Hgen Hfn Hx).
Qed.
End StringObjects.

(* non-vacuity: the hypotheses of string_object_exact hold of a concrete schema and document *)
Definition ex_leaf (mn mx : nat) (p : option pat) : schema :=
  Sch (mkC [SString] None None [] 0 0 mn mx p None (mkBounds None None None None) None None) [] None false None [] [].
Definition ex_schema : schema :=
  Sch (mkC [SObject] None None [[97]%N] 0 0 0 0 None None (mkBounds None None None None) None None)
      [([97]%N, ex_leaf 2 0 None); ([98]%N, ex_leaf 0 3 None)] None false None [] [].
Definition ex_doc : list (str * json) := [([97]%N, JStr [120; 121]%N); ([99]%N, JBool true)].

Example string_object_inhabited :
  exists t b, Gen.gen (fun s => s) (mkCfg false false) [] 3 MDeclared None false ex_schema [82]%N = Done (t, b) /\
    is_ok (Exec.dec (fun _ _ => true) [] 3 t (JObj ex_doc)) = Valid.valid (fun _ _ => true) [] 2 ex_schema (JObj ex_doc) /\
    Valid.valid (fun _ _ => true) [] 2 ex_schema (JObj ex_doc) = true.
Proof.
  eexists. eexists. split; [vm_compute; reflexivity|]. split; [|vm_compute; reflexivity].
  eapply (string_object_exact (fun s => s) (mkCfg false false) [] (fun _ _ => true) [] [] 0 0 0 None false ex_schema [82]%N _ _ ex_doc); try reflexivity.
  - discriminate.
  - repeat split; try reflexivity; discriminate.
  - intros k p [H|[H|[]]]; inversion H; subst; eexists; repeat split; reflexivity.
  - repeat constructor; cbn; intuition discriminate.
  - repeat constructor; cbn; intuition discriminate.
  - intros k [H|[]]. subst. left; reflexivity.
  - vm_compute. repeat constructor; cbn; intuition discriminate.
  - intros fname kp H. vm_compute in H. destruct H as [H|[H|[]]]; inversion H; subst; discriminate.
  - intros k x [H|[H|[]]]; inversion H; subst; (split; [discriminate|]); intros s0 E; inversion E; subst; reflexivity.
Qed.

(* required here and not at the head: NumericP opens Q_scope *)
From GJS Require Import NumericP.

Section ScalarObjects.
Variable idf : str -> str.
Variable cf : cfg.
Variable defs : list (str * schema).
Variable fmt_ok : fmtk -> str -> bool.
Variable env : list (str * gty).
Variable sdefs : list (str * schema).
Hypothesis Hms : g_minsized cf = false.
Notation gen := (Gen.gen idf cf defs).
Notation valid := (Valid.valid fmt_ok sdefs).

Definition int_leaf (p : schema) : Prop :=
  exists c m, p = Sch c [] None false None [] [] /\ c_types c = [SInteger] /\ c_ref c = None /\ c_enum c = None /\ c_default c = None /\
    c_mult c = option_map inject_Z m /\ (forall z, m = Some z -> z <> 0%Z) /\ bounds_integral (c_bounds c).
Definition bool_leaf (p : schema) : Prop :=
  exists c, p = Sch c [] None false None [] [] /\ c_types c = [SBoolean] /\ c_ref c = None /\ c_enum c = None /\ c_default c = None.

Lemma gen_int_leaf f self sc p ty bp : int_leaf p -> gen (S f) MInline self false p sc = Done (ty, bp) -> ty = TInt KInt /\ bp = c_bounds (s_con p).
Proof.
  intros (c & m & -> & Ht & Hr & He & _) H. rewrite gen_inline_typed with (t := SInteger) in H by first [assumption | reflexivity].
  cbn [is_prim_sty] in H. unfold primitive, primitive_int in H. rewrite Hms in H. inversion H. split; reflexivity.
Qed.
Lemma gen_bool_leaf f self sc p ty bp : bool_leaf p -> gen (S f) MInline self false p sc = Done (ty, bp) -> ty = TBool /\ bp = c_bounds (s_con p).
Proof.
  intros (c & -> & Ht & Hr & He & _) H. rewrite gen_inline_typed with (t := SBoolean) in H by first [assumption | reflexivity].
  inversion H. split; reflexivity.
Qed.

(* integers in documents: written as integer literals, inside Go's int *)
Definition int_value (x : json) : Prop := x <> JNull /\ forall n, x = JNum n -> exists z, n = mkNum (inject_Z z) true /\ in_range KInt z = true.

Lemma valid_int_leaf fv p x : int_leaf p -> valid (S fv) p x =
  match x with JNum n => Qis_int (nq n) && spec_numeric (c_mult (s_con p)) (c_bounds (s_con p)) (nq n) | _ => false end.
Proof.
  intros (c & m & -> & Ht & Hr & He & _). rewrite (valid_typed fmt_ok sdefs fv c _ _ _ _ SInteger x Hr Ht), He.
  destruct x; try reflexivity. cbn [type_matches keywords s_con]. rewrite andb_true_r. reflexivity.
Qed.
Lemma valid_bool_leaf fv p x : bool_leaf p -> valid (S fv) p x = match x with JBool _ => true | _ => false end.
Proof.
  intros (c & -> & Ht & Hr & He & _). rewrite (valid_typed fmt_ok sdefs fv c _ _ _ _ SBoolean x Hr Ht), He.
  destruct x; reflexivity.
Qed.

Lemma int_leaf_exact f g fv self sc fname k p ty bp x : int_leaf p -> gen (S f) MInline self false p sc = Done (ty, bp) -> fname <> [] -> int_value x ->
  accepts fmt_ok env fname k p bp (S g) ty x = valid (S fv) p x.
Proof.
  intros Hleaf Hgen Hn [Hnull Hint]. destruct (gen_int_leaf f self sc p ty bp Hleaf Hgen) as [-> ->].
  rewrite (valid_int_leaf fv p x Hleaf).
  destruct Hleaf as (pc & m & -> & _ & _ & _ & _ & Hm & Hnz & Hbi). unfold accepts. cbn [s_con].
  destruct x as [| |n| | |]; try contradiction; try reflexivity.
  destruct (Hint n eq_refl) as [z [-> Hrange]]. rewrite (dec_int_lossless fmt_ok env g KInt z Hrange : Exec.dec fmt_ok env (S g) (TInt KInt) (JNum (mkNum (inject_Z z) true)) = _).
  cbn [nq]. rewrite Qis_int_inject. cbn [andb field_validators]. destruct (has_bound_kw (c_mult pc) (c_bounds pc)) eqn:Ek.
  - rewrite (value_check_numeric _ fname k true _ _ (GI z) (inject_Z z) Hn eq_refl), Hm, (numeric_int_exact m (c_bounds pc) z Hbi Hnz), <- Hm. reflexivity.
  - rewrite (no_bound_kw _ _ _ Ek). reflexivity.
Qed.

Lemma bool_leaf_exact f g fv self sc fname k p ty bp x : bool_leaf p -> gen (S f) MInline self false p sc = Done (ty, bp) -> x <> JNull ->
  accepts fmt_ok env fname k p bp (S g) ty x = valid (S fv) p x.
Proof.
  intros Hleaf Hgen Hnull. destruct (gen_bool_leaf f self sc p ty bp Hleaf Hgen) as [-> ->].
  rewrite (valid_bool_leaf fv p x Hleaf). destruct x; try contradiction; reflexivity.
Qed.

Lemma int_leaf_default p : int_leaf p -> c_default (s_con p) = None.
Proof. intros (c & m & -> & _ & _ & _ & Hd & _). exact Hd. Qed.
Lemma bool_leaf_default p : bool_leaf p -> c_default (s_con p) = None.
Proof. intros (c & -> & _ & _ & _ & Hd). exact Hd. Qed.
End ScalarObjects.

(* an object whose properties are constrained strings, integers (integral bounds, non-zero integral multipleOf) and booleans: the struct the
   generator declares accepts a JSON object iff it is valid under the schema - for every such schema, every required set, every document
   without nulls whose strings are ASCII and whose integers are integer literals inside Go's int *)
Theorem scalar_object_exact idf cf defs fmt_ok env sdefs f fd fv self sub s scope t b kv :
  g_minsized cf = false -> g_only_models cf = false -> scope <> [] ->
  plain_object s -> c_types (s_con s) = [SObject] -> s_addl s = None -> s_addl_false s = false ->
  (forall k p, In (k, p) (s_props s) -> str_leaf p \/ int_leaf p \/ bool_leaf p) ->
  NoDup (map fst (s_props s)) -> NoDup (map fst kv) ->
  incl (c_required (s_con s)) (map fst (s_props s)) ->
  NoDup (map fst (prop_names idf (s_props s))) -> (forall fname kp, In (fname, kp) (prop_names idf (s_props s)) -> fname <> []) ->
  (forall k p x, In (k, p) (s_props s) -> lookup k kv = Some x ->
     x <> JNull /\ (str_leaf p -> forall s0, x = JStr s0 -> utf8_len s0 = length s0) /\ (int_leaf p -> int_value x)) ->
  Gen.gen idf cf defs (S (S (S f))) MDeclared self sub s scope = Done (t, b) ->
  is_ok (Exec.dec fmt_ok env (S (S (S fd))) t (JObj kv)) = Valid.valid fmt_ok sdefs (S (S fv)) s (JObj kv).
Proof.
  intros Hms Hom Hsc Hp Hty Ha Haf Hleaf Np Nk Hreq Nn Hne Hval Hg.
  apply (level_of_values idf cf defs fmt_ok env sdefs (S f) (S fd) (S fv) self sub s scope t b kv Hom Hsc Hp Hty Ha Haf); try assumption.
  - intros k p Hin. destruct (Hleaf k p Hin) as [Hl|[Hl|Hl]]; [exact (str_leaf_default p Hl)|exact (int_leaf_default p Hl)|exact (bool_leaf_default p Hl)].
  - intros fname k p ty bp x Hinp Hfn Hgen El. destruct (Hval k p x Hinp El) as (Hnn & Hs & Hi). split; [exact Hnn|].
    destruct (Hleaf k p Hinp) as [Hl|[Hl|Hl]].
    + destruct (_ || _); exact (str_leaf_exact idf cf defs fmt_ok env sdefs f _ fv self _ fname k p ty bp x Hl Hgen Hfn (conj Hnn (Hs Hl))).
    + destruct (_ || _); exact (int_leaf_exact idf cf defs fmt_ok env sdefs Hms f _ fv self _ fname k p ty bp x Hl Hgen Hfn (Hi Hl)).
    + destruct (_ || _); exact (bool_leaf_exact idf cf defs fmt_ok env sdefs f _ fv self _ fname k p ty bp x Hl Hgen Hnn).
Qed.
