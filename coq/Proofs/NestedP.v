(* C02 / C04 / C05 / C06 / C08 through every depth: objects whose properties are leaves (ten kinds: constrained strings, integers, booleans,
   numbers, arrays and maps of plain items, and string / number / boolean / integer enums) or, recursively, such objects again, written
   inline or given by reference - nested to any depth n.  The struct the generator declares for the root accepts a JSON object iff the
   object is valid under the schema (both directions), by induction on n over [LevelP.level_of_values]: each leaf kind supplies one fact
   about the values of its generated type ([*_leaf_exact]), the field contract of LevelP carries it to the field, and the check attached to
   an object-valued property is the method of the nested struct, which is the statement one level down.
   A leaf kind K consists of: its predicate [K_leaf] (a disjunct of [leaf]; a constructor of [lkind] with its line in [leaf_tag], [kind_tag],
   [kind_doc] and [guardb]), [gen_K_leaf] (the type [gen] returns for it), [valid_K_leaf] (what [valid] computes on it), [K_leaf_exact] (from
   the two: the type with its checks accepts a guarded value iff the value is valid) and its line in [leaf_exact]; the string, number and boolean enums
   share [gen_typed_enum], [valid_typed_enum] and [typed_enum_exact] through their [*_leaf_typed]. *)
From GJS Require Import Base Bounds IntSize Schema GoType Gen Exec Valid ValidP ExecP GenP MethodP LevelP EnumP.

Section Nested.
Variable idf : str -> str.
Variable cf : cfg.
Variable defs : list (str * schema).
Variable fmt_ok : fmtk -> str -> bool.
Variable env : list (str * gty).
Variable sdefs : list (str * schema).
Hypothesis Hms : g_minsized cf = false.
Hypothesis Hom : g_only_models cf = false.
Notation gen := (Gen.gen idf cf defs).
Notation dec := (Exec.dec fmt_ok env).
Notation valid := (Valid.valid fmt_ok sdefs).
Notation acc := (accepts fmt_ok env).

(* numbers with any combination of the four bounds and no multipleOf: the emitted comparisons are exact on every number *)
Definition num_leaf (p : schema) : Prop :=
  exists c, p = Sch c [] None false None [] [] /\ c_types c = [SNumber] /\ c_ref c = None /\ c_enum c = None /\ c_default c = None /\ c_mult c = None.

Lemma gen_num_leaf f self sc p ty bp : num_leaf p -> gen (S f) MInline self false p sc = Done (ty, bp) -> ty = TFloat /\ bp = c_bounds (s_con p).
Proof.
  intros (c & -> & Ht & Hr & He & _) H. rewrite gen_inline_typed with (t := SNumber) in H by first [assumption | reflexivity].
  inversion H. split; reflexivity.
Qed.

Lemma valid_num_leaf fv p x : num_leaf p -> valid (S fv) p x =
  match x with JNum n => spec_numeric None (c_bounds (s_con p)) (nq n) | _ => false end.
Proof.
  intros (c & -> & Ht & Hr & He & _ & Hm). rewrite (valid_typed fmt_ok sdefs fv c _ _ _ _ SNumber x Hr Ht), He.
  destruct x; try reflexivity. cbn [type_matches andb keywords s_con]. rewrite Hm. reflexivity.
Qed.

Lemma num_leaf_exact f g fv self sc fname k p ty bp x : num_leaf p -> gen (S f) MInline self false p sc = Done (ty, bp) -> fname <> [] -> x <> JNull ->
  acc fname k p bp (S g) ty x = valid (S fv) p x.
Proof.
  intros Hleaf Hgen Hn Hnull. destruct (gen_num_leaf f self sc p ty bp Hleaf Hgen) as [-> ->].
  rewrite (valid_num_leaf fv p x Hleaf). destruct Hleaf as (pc & -> & _ & _ & _ & _ & Hm). unfold accepts. cbn [s_con].
  destruct x; try contradiction; cbn [Exec.dec]; try reflexivity.
  cbn [field_validators]. rewrite Hm. destruct (has_bound_kw None (c_bounds pc)) eqn:Ek.
  - rewrite (value_check_numeric _ fname k false _ _ (GF (nq n)) (nq n) Hn eq_refl), NumericP.num_exact. reflexivity.
  - rewrite (no_bound_kw _ _ _ Ek). reflexivity.
Qed.

(* a plain item: a string, number or boolean schema without keywords of its own.  The generator attaches no validator to array items or map
   values (findings D9 / D60), so an item with keywords would be checked by the schema and not by the generated code: such leaves are not exact *)
Inductive ikind := IStr | INum | IBool.
Definition plain_item (k : ikind) (it : schema) : Prop :=
  exists c, it = Sch c [] None false None [] [] /\ c_ref c = None /\ c_enum c = None /\ c_default c = None /\ c_format c = None /\
            c_min_len c = 0 /\ c_max_len c = 0 /\ c_pattern c = None /\ c_mult c = None /\ c_bounds c = mkBounds None None None None /\
            c_types c = [match k with IStr => SString | INum => SNumber | IBool => SBoolean end].
Definition item_go (k : ikind) : gty := match k with IStr => TString | INum => TFloat | IBool => TBool end.
Definition item_spec (k : ikind) (y : json) : bool :=
  match k, y with IStr, JStr _ | INum, JNum _ | IBool, JBool _ => true | _, _ => false end.

Lemma item_go_not_slice k : match item_go k with TSlice _ _ | TNullT => False | _ => True end.
Proof. destruct k; exact I. Qed.

Lemma dec_tstring fd y : dec (S fd) TString y = match y with JStr s0 => Ok (GS s0) | JNull => Ok (GS []) | _ => Err end.
Proof. reflexivity. Qed.

Lemma dec_tfloat fd y : dec (S fd) TFloat y = match y with JNum n => Ok (GF (nq n)) | JNull => Ok (GF 0) | _ => Err end.
Proof. reflexivity. Qed.

Lemma dec_tbool fd y : dec (S fd) TBool y = match y with JBool b => Ok (GB b) | JNull => Ok (GB false) | _ => Err end.
Proof. reflexivity. Qed.

Lemma dec_item fd k y : y <> JNull -> dec (S fd) (item_go k) y =
  match k, y with IStr, JStr s0 => Ok (GS s0) | INum, JNum n => Ok (GF (nq n)) | IBool, JBool b => Ok (GB b) | _, _ => Err end.
Proof. intros Hy. destruct k, y; try contradiction; reflexivity. Qed.

Lemma item_decodes fd k y : y <> JNull -> is_ok (dec (S fd) (item_go k) y) = item_spec k y.
Proof. intros Hy. rewrite (dec_item fd k y Hy). destruct k, y; reflexivity. Qed.

Lemma valid_plain_item fv k it y : plain_item k it -> valid (S fv) it y = item_spec k y.
Proof.
  intros (c & -> & Hr & He & _ & Hf & Hmn & Hmx & Hp & Hm & Hb & Ht). rewrite (valid_typed fmt_ok sdefs fv c _ _ _ _ _ y Hr Ht), He.
  destruct k, y; try reflexivity; cbn [type_matches andb keywords s_con item_spec].
  - (* a string *) rewrite Hmn, Hmx, Hp, Hf. reflexivity.
  - (* a number *) rewrite Hm, Hb. reflexivity.
Qed.

Definition item_sty (k : ikind) : sty := match k with IStr => SString | INum => SNumber | IBool => SBoolean end.

Lemma gen_plain_item f self sc k it : plain_item k it -> gen (S f) MInline self false it sc = Done (item_go k, c_bounds (s_con it)).
Proof.
  intros (c & -> & Hr & He & Hd & Hf & Hmn & Hmx & Hp & Hm & Hb & Ht).
  rewrite gen_inline_typed with (t := item_sty k) by first [assumption | reflexivity | destruct k; exact Ht].
  destruct k; cbn [item_sty is_prim_sty item_go s_con]; unfold primitive; rewrite ?Hf; reflexivity.
Qed.

Lemma gen_item_mtype f self sc k it : plain_item k it -> gen (S f) MType self false it sc = Done (item_go k, c_bounds (s_con it)).
Proof.
  intros (c & -> & Hr & He & Hd & Hf & Hmn & Hmx & Hp & Hm & Hb & Ht).
  rewrite gen_type_typed with (t := item_sty k) (ptr := false) by first [assumption | reflexivity | unfold determine_type; cbn [s_con]; rewrite Ht; reflexivity].
  destruct k; cbn [item_sty item_go s_con]; unfold primitive; rewrite ?Hf; reflexivity.
Qed.

Definition arr_leaf_k (k : ikind) (p : schema) : Prop :=
  exists c it, p = Sch c [] None false (Some it) [] [] /\ c_types c = [SArray] /\ c_ref c = None /\ c_enum c = None /\ c_default c = None /\ plain_item k it.
Definition arr_leaf (p : schema) : Prop := exists k, arr_leaf_k k p.
Definition arr_value (x : json) : Prop := forall l, x = JArr l -> forall y, In y l -> y <> JNull.

Lemma valid_arr_leaf fv k p x : arr_leaf_k k p -> valid (S (S fv)) p x =
  match x with
  | JArr l => len_ok (c_min_items (s_con p)) (c_max_items (s_con p)) (length l) && forallb (item_spec k) l
  | _ => false
  end.
Proof.
  intros (c & it & -> & Ht & Hr & He & _ & Hit). rewrite (valid_typed fmt_ok sdefs (S fv) c _ _ _ _ SArray x Hr Ht), He.
  destruct x; try reflexivity. cbn [type_matches andb keywords s_con s_items]. f_equal.
  apply forallb_ext_in. intros y _. exact (valid_plain_item fv k it y Hit).
Qed.

Lemma gen_arr_leaf f self sc k p ty bp : arr_leaf_k k p -> gen (S f) MInline self false p sc = Done (ty, bp) -> ty = TSlice true (item_go k) /\ bp = c_bounds (s_con p).
Proof.
  intros (c & it & -> & Ht & Hr & He & _ & Hit) H.
  rewrite gen_inline_typed with (t := SArray) in H by first [assumption | reflexivity]. cbn [is_prim_sty s_items] in H.
  destruct f as [|f]; [discriminate|]. rewrite (gen_plain_item f self _ k it Hit) in H. inversion H. split; reflexivity.
Qed.

Lemma omap_items fd k l : (forall y, In y l -> y <> JNull) -> is_ok (omap (dec (S fd) (item_go k)) l) = forallb (item_spec k) l.
Proof.
  intros Hn. rewrite omap_is_ok. apply forallb_ext_in. intros y Hy. exact (item_decodes fd k y (Hn y Hy)).
Qed.

Lemma array_validators_item fname jn mn mx k :
  array_validators fname jn mn mx 1 (TSlice true (item_go k)) = if negb (mn =? 0) || negb (mx =? 0) then [VArray fname jn 1 mn mx] else [].
Proof. destruct k; cbn [array_validators item_go]; rewrite app_nil_r; reflexivity. Qed.

Lemma arr_leaf_exact f g fv self sc fname k p ty bp x : arr_leaf p -> gen (S f) MInline self false p sc = Done (ty, bp) -> fname <> [] -> x <> JNull -> arr_value x ->
  acc fname k p bp (S (S g)) ty x = valid (S (S fv)) p x.
Proof.
  intros [ik Hleaf] Hgen Hn Hnull Harr. destruct (gen_arr_leaf f self sc ik p ty bp Hleaf Hgen) as [-> ->].
  rewrite (valid_arr_leaf fv ik p x Hleaf). destruct Hleaf as (pc & it & -> & _). unfold accepts. cbn [s_con field_validators].
  rewrite dec_slice. destruct x as [| | | |l|]; try contradiction; try reflexivity.
  rewrite <- (omap_items g ik l (Harr l eq_refl)).
  destruct (omap (dec (S g) (item_go ik)) l) as [vs| | |] eqn:Eo; cbn [obind is_ok]; rewrite ?andb_false_r; try reflexivity.
  rewrite andb_true_r, array_validators_item. apply omap_Ok, Forall2_length in Eo.
  destruct (negb (c_min_items pc =? 0) || negb (c_max_items pc =? 0)) eqn:Ek.
  - rewrite (value_check_array _ fname k 1 _ _ (GL vs) Hn) by (try discriminate; apply forallb_forall; reflexivity).
    cbn [levels_ok]. rewrite <- Eo. reflexivity.
  - apply orb_false_iff in Ek. destruct Ek as [E1 E2]. apply negb_false_iff in E1, E2.
    unfold len_ok. rewrite E1, E2. reflexivity.
Qed.

(* maps: a property-less object whose additionalProperties is a plain string / number / boolean schema *)
Definition map_leaf_k (k : ikind) (p : schema) : Prop :=
  exists c a, p = Sch c [] (Some a) false None [] [] /\ c_types c = [SObject] /\ c_ref c = None /\ c_enum c = None /\ c_default c = None /\ c_required c = [] /\ plain_item k a.
Definition map_leaf (p : schema) : Prop := exists k, map_leaf_k k p.
Definition map_value (x : json) : Prop := forall kv, x = JObj kv -> forall y, In y kv -> snd y <> JNull.

Lemma valid_map_leaf fv k p x : map_leaf_k k p -> valid (S (S fv)) p x =
  match x with JObj kv => forallb (fun y => item_spec k (snd y)) kv | _ => false end.
Proof.
  intros (c & a & -> & Ht & Hr & He & _ & Hq & Hit). rewrite (valid_typed fmt_ok sdefs (S fv) c _ _ _ _ SObject x Hr Ht), He.
  destruct x; try reflexivity. cbn [type_matches andb keywords s_con s_props s_addl s_addl_false lookup]. rewrite Hq.
  apply forallb_ext_in. intros y _. exact (valid_plain_item fv k a (snd y) Hit).
Qed.

(* a map takes the three steps generateTypeInline, generateDeclaredType, generateType, and one more for its value type *)
Lemma gen_map_leaf f self sc k p ty bp : map_leaf_k k p -> gen (S f) MInline self false p sc = Done (ty, bp) ->
  ty = TNamed sc (TMap (item_go k)) None /\ bp = c_bounds (s_con p).
Proof.
  intros (c & a & -> & Ht & Hr & He & _ & _ & Hit) H.
  rewrite gen_inline_object_eq in H by first [assumption | reflexivity].
  destruct f as [|f]; [discriminate|]. rewrite gen_declared in H. cbn [s_con] in H. rewrite He in H.
  destruct f as [|f]; [discriminate|].
  rewrite gen_type_typed with (t := SObject) (ptr := false) in H by first [assumption | reflexivity | unfold determine_type; cbn [s_con]; rewrite Ht; reflexivity].
  cbn [s_props s_addl] in H.
  destruct f as [|f]; [discriminate|]. rewrite (gen_item_mtype f self _ k a Hit) in H. cbn [rbind fst s_con] in H.
  unfold declare in H. cbn [is_named_ty] in H. rewrite Hom in H. inversion H. split; reflexivity.
Qed.

Lemma omap_map_items fd k kv : (forall y, In y kv -> snd y <> JNull) ->
  is_ok (omap (fun y : str * json => obind (dec (S fd) (item_go k) (snd y)) (fun v => Ok (fst y, v))) kv) = forallb (fun y => item_spec k (snd y)) kv.
Proof.
  intros Hn. rewrite omap_is_ok. apply forallb_ext_in. intros [k0 y] Hy. cbn [fst snd]. rewrite <- (item_decodes fd k y (Hn _ Hy)).
  destruct (dec (S fd) (item_go k) y); reflexivity.
Qed.

Lemma map_leaf_exact f g fv self sc fname k p ty bp x : map_leaf p -> gen (S f) MInline self false p sc = Done (ty, bp) -> x <> JNull -> map_value x ->
  acc fname k p bp (S (S (S g))) ty x = valid (S (S fv)) p x.
Proof.
  intros [ik Hleaf] Hgen Hnull Hmv. destruct (gen_map_leaf f self sc ik p ty bp Hleaf Hgen) as [-> ->].
  rewrite (valid_map_leaf fv ik p x Hleaf), accepts_plain by reflexivity. rewrite dec_named, dec_map.
  destruct x as [| | | | |kv0]; try contradiction; try reflexivity.
  rewrite <- (omap_map_items g ik kv0 (Hmv kv0 eq_refl)). destruct (omap _ kv0); reflexivity.
Qed.

(* the named map type is nillable: a map field is never wrapped in a pointer *)
Lemma map_leaf_nillable rn f self sc p ty bp : map_leaf p -> gen (S f) MInline self false p sc = Done (ty, bp) -> nillable_ty rn ty = true.
Proof. intros [ik Hleaf] Hgen. destruct (gen_map_leaf f self sc ik p ty bp Hleaf Hgen) as [-> _]. reflexivity. Qed.

(* string enums (C08): a typed string schema that lists its values *)
Definition enum_leaf (p : schema) : Prop :=
  exists c vs, p = Sch c [] None false None [] [] /\ c_types c = [SString] /\ c_ref c = None /\ c_enum c = Some (map JStr vs) /\ vs <> [] /\
               c_default c = None /\ c_format c = None /\ c_min_len c = 0 /\ c_max_len c = 0 /\ c_pattern c = None.

(* number enums (C08): {"type": "number", "enum": [numbers]} with no other keyword *)
Definition num_enum_leaf (p : schema) : Prop :=
  exists c ns, p = Sch c [] None false None [] [] /\ c_types c = [SNumber] /\ c_ref c = None /\ c_enum c = Some (map JNum ns) /\ ns <> [] /\
               c_default c = None /\ c_format c = None /\ has_bound_kw (c_mult c) (c_bounds c) = false.

(* boolean enums (C08): {"type": "boolean", "enum": [booleans]} with no other keyword *)
Definition bool_enum_leaf (p : schema) : Prop :=
  exists c bs, p = Sch c [] None false None [] [] /\ c_types c = [SBoolean] /\ c_ref c = None /\ c_enum c = Some (map JBool bs) /\ bs <> [] /\
               c_default c = None /\ c_format c = None.

Definition typed_enum (k : ikind) (l : list json) (p : schema) : Prop :=
  exists c, p = Sch c [] None false None [] [] /\ c_types c = [item_sty k] /\ c_ref c = None /\ c_enum c = Some l /\ l <> [] /\
            forallb (item_spec k) l = true /\ c_default c = None /\ c_format c = None /\
            match k with
            | IStr => c_min_len c = 0 /\ c_max_len c = 0 /\ c_pattern c = None
            | INum => has_bound_kw (c_mult c) (c_bounds c) = false
            | IBool => True
            end.

Lemma enum_leaf_typed p : enum_leaf p -> exists l, typed_enum IStr l p.
Proof.
  intros (c & vs & -> & Ht & Hr & He & Hne & Hd & Hf & Hkw). exists (map JStr vs), c. repeat split; try assumption; try apply Hkw.
  - destruct vs; [contradiction Hne; reflexivity|discriminate].
  - rewrite forallb_map. apply forallb_forall. reflexivity.
Qed.

Lemma num_enum_leaf_typed p : num_enum_leaf p -> exists l, typed_enum INum l p.
Proof.
  intros (c & ns & -> & Ht & Hr & He & Hne & Hd & Hf & Hkw). exists (map JNum ns), c. repeat split; try assumption.
  - destruct ns; [contradiction Hne; reflexivity|discriminate].
  - rewrite forallb_map. apply forallb_forall. reflexivity.
Qed.

Lemma bool_enum_leaf_typed p : bool_enum_leaf p -> exists l, typed_enum IBool l p.
Proof.
  intros (c & bs & -> & Ht & Hr & He & Hne & Hd & Hf). exists (map JBool bs), c. repeat split; try assumption.
  - destruct bs; [contradiction Hne; reflexivity|discriminate].
  - rewrite forallb_map. apply forallb_forall. reflexivity.
Qed.

Lemma valid_typed_enum fv k l p x : typed_enum k l p -> valid (S fv) p x = item_spec k x && existsb (json_eqb x) l.
Proof.
  intros (c & -> & Ht & Hr & He & _ & _ & _ & Hf & Hkw). rewrite (valid_typed fmt_ok sdefs fv c _ _ _ _ _ x Hr Ht), He.
  destruct k, x; try reflexivity; cbn [item_sty type_matches andb keywords s_con item_spec].
  - (* a string *) destruct Hkw as (Hmn & Hmx & Hp). rewrite Hmn, Hmx, Hp, Hf. apply andb_true_r.
  - (* a number *) rewrite (no_bound_kw _ _ (nq n) Hkw). apply andb_true_r.
  - (* a boolean *) apply andb_true_r.
Qed.

(* the table entry generateEnumType makes of a listed value *)
Definition item_ev (v : json) : ev := match ev_of_json v with Some e => e | None => EVNil end.

Lemma rmap_ev_typed k l : forallb (item_spec k) l = true ->
  rmap (fun v => match ev_of_json v with Some e => Done e | None => GUnmod end) l = Done (map item_ev l).
Proof.
  induction l as [|e r IH]; [reflexivity|]. cbn [forallb]. intros H. apply andb_true_iff in H. destruct H as [He Hr].
  cbn [rmap map]. rewrite (IH Hr). destruct k, e; try discriminate He; reflexivity.
Qed.

Lemma gen_typed_enum k l f self sc p ty bp : typed_enum k l p -> gen (S f) MInline self false p sc = Done (ty, bp) ->
  ty = TEnum sc (item_go k) false (map item_ev l) /\ bp = c_bounds (s_con p).
Proof.
  intros (c & -> & Ht & Hr & He & Hne & Hl & _ & Hf & _) H. cbn [s_con].
  destruct l as [|v0 vr]; [contradiction Hne; reflexivity|].
  rewrite gen_inline_enum_typed with (t := item_sty k) (v := v0) (vs := vr) in H by assumption.
  destruct f as [|[|f]]; try discriminate H. unfold enum_typed, primitive in H. cbn [s_con] in H.
  destruct k; cbn [item_sty rbind wrap_ptr sty_eqb] in H; rewrite ?Hf, (rmap_ev_typed _ _ Hl) in H; inversion H; split; reflexivity.
Qed.

Lemma enum_table_members k l x v fd : forallb (item_spec k) l = true -> x <> JNull -> dec (S fd) (item_go k) x = Ok v ->
  existsb (enum_eq (item_go k) v) (map item_ev l) = existsb (json_eqb x) l.
Proof.
  intros Hl Hx Hd. rewrite existsb_map. rewrite (dec_item fd k x Hx) in Hd. induction l as [|e r IH]; [reflexivity|].
  cbn [forallb] in Hl. apply andb_true_iff in Hl. destruct Hl as [He Hr]. cbn [existsb]. rewrite (IH Hr). f_equal.
  destruct k, x; try discriminate Hd; inversion Hd; destruct e; try discriminate He; reflexivity.
Qed.

Lemma typed_enum_dec k l sc fd x : forallb (item_spec k) l = true -> x <> JNull ->
  is_ok (dec (S (S fd)) (TEnum sc (item_go k) false (map item_ev l)) x) = item_spec k x && existsb (json_eqb x) l.
Proof.
  intros Hl Hx. rewrite (enum_exact fmt_ok env (S fd) sc _ _ x (existsb (json_eqb x) l)), (item_decodes fd k x Hx); [reflexivity|].
  intros v Hd. exact (enum_table_members k l x v fd Hl Hx Hd).
Qed.

Lemma typed_enum_exact ik f g fv self sc fname k p ty bp x : (exists l, typed_enum ik l p) -> gen (S f) MInline self false p sc = Done (ty, bp) -> x <> JNull ->
  acc fname k p bp (S (S g)) ty x = valid (S fv) p x.
Proof.
  intros [l Hp] Hgen Hx. destruct (gen_typed_enum ik l f self sc p ty bp Hp Hgen) as (-> & _). rewrite (valid_typed_enum fv ik l p x Hp).
  destruct Hp as (c & _ & _ & _ & _ & _ & Hl & _). rewrite accepts_plain by reflexivity. exact (typed_enum_dec ik l sc g x Hl Hx).
Qed.

Definition leaf (p : schema) : Prop := str_leaf p \/ int_leaf p \/ bool_leaf p \/ num_leaf p \/ arr_leaf p \/ enum_leaf p \/ map_leaf p \/ int_enum_leaf p \/ num_enum_leaf p \/ bool_enum_leaf p.

(* the only kind a schema can be a leaf of, read off its keywords *)
Inductive lkind := LStr | LInt | LBool | LNum | LArr | LEnum | LMap | LIntEnum | LNumEnum | LBoolEnum.
Definition is_kind (t : lkind) : schema -> Prop :=
  match t with
  | LStr => str_leaf | LInt => int_leaf | LBool => bool_leaf | LNum => num_leaf | LArr => arr_leaf | LEnum => enum_leaf | LMap => map_leaf
  | LIntEnum => int_enum_leaf | LNumEnum => num_enum_leaf | LBoolEnum => bool_enum_leaf
  end.
Definition leaf_tag (p : schema) : option lkind :=
  match c_ref (s_con p), c_types (s_con p), c_enum (s_con p) with
  | None, [SString], None => Some LStr | None, [SString], Some _ => Some LEnum
  | None, [SInteger], None => Some LInt | None, [SInteger], Some _ => Some LIntEnum
  | None, [SBoolean], None => Some LBool | None, [SBoolean], Some _ => Some LBoolEnum
  | None, [SNumber], None => Some LNum | None, [SNumber], Some _ => Some LNumEnum
  | None, [SArray], None => Some LArr
  | None, [SObject], None => match s_props p with [] => Some LMap | _ => None end
  | _, _, _ => None
  end.

Lemma kind_tag t p : is_kind t p -> leaf_tag p = Some t /\ c_default (s_con p) = None.
Proof.
  destruct t; cbn [is_kind]; unfold leaf_tag. (* the kinds in the order of [lkind] *)
  - intros (c & -> & Ht & Hr & He & Hd & _). cbn [s_con]. rewrite Hr, Ht, He. auto.
  - intros (c & m & -> & Ht & Hr & He & Hd & _). cbn [s_con]. rewrite Hr, Ht, He. auto.
  - intros (c & -> & Ht & Hr & He & Hd). cbn [s_con]. rewrite Hr, Ht, He. auto.
  - intros (c & -> & Ht & Hr & He & Hd & _). cbn [s_con]. rewrite Hr, Ht, He. auto.
  - intros (ik & c & it & -> & Ht & Hr & He & Hd & _). cbn [s_con]. rewrite Hr, Ht, He. auto.
  - intros (c & vs & -> & Ht & Hr & He & _ & Hd & _). cbn [s_con]. rewrite Hr, Ht, He. auto.
  - intros (ik & c & a & -> & Ht & Hr & He & Hd & _). cbn [s_con s_props]. rewrite Hr, Ht, He. auto.
  - intros (c & l & -> & Ht & Hr & He & _ & _ & Hd & _). cbn [s_con]. rewrite Hr, Ht, He. auto.
  - intros (c & ns & -> & Ht & Hr & He & _ & Hd & _). cbn [s_con]. rewrite Hr, Ht, He. auto.
  - intros (c & bs & -> & Ht & Hr & He & _ & Hd & _). cbn [s_con]. rewrite Hr, Ht, He. auto.
Qed.

Lemma leaf_kind p : leaf p -> exists t, is_kind t p.
Proof.
  intros [H|[H|[H|[H|[H|[H|[H|[H|[H|H]]]]]]]]];
    [exists LStr|exists LInt|exists LBool|exists LNum|exists LArr|exists LEnum|exists LMap|exists LIntEnum|exists LNumEnum|exists LBoolEnum]; exact H.
Qed.

Lemma kind_leaf t p : is_kind t p -> leaf p.
Proof. destruct t; cbn [is_kind]; unfold leaf; tauto. Qed.

Lemma leaf_default_none p : leaf p -> c_default (s_con p) = None.
Proof. intros H. destruct (leaf_kind p H) as [t Ht]. exact (proj2 (kind_tag t p Ht)). Qed.

Lemma leaf_not_object p : leaf p -> plain_object p -> c_types (s_con p) = [SObject] -> False.
Proof.
  intros Hl (He & Hr & _ & Hprops & _) Pty. destruct (leaf_kind p Hl) as [t Ht]. apply kind_tag, proj1 in Ht.
  unfold leaf_tag in Ht. rewrite Hr, Pty, He in Ht. destruct (s_props p); [exact (Hprops eq_refl)|discriminate].
Qed.

(* the guard on a document value under which a leaf of kind t is exact *)
Definition kind_doc (t : lkind) (x : json) : Prop :=
  match t with
  | LStr => forall s0, x = JStr s0 -> utf8_len s0 = length s0
  | LInt | LIntEnum => int_value x
  | LArr => arr_value x
  | LMap => map_value x
  | LBool | LNum | LEnum | LNumEnum | LBoolEnum => True
  end.

(* what [dok] asks of the value of a leaf property *)
Definition leaf_doc (p : schema) (x : json) : Prop := x <> JNull /\ forall t, is_kind t p -> kind_doc t x.

(* [dok] and the statements of EnumObjP spell this guard out kind by kind; these two lemmas are the only places that know in which order *)
Lemma leaf_doc_iff p x :
  (x <> JNull /\ (str_leaf p -> forall s0, x = JStr s0 -> utf8_len s0 = length s0) /\ (int_leaf p -> int_value x) /\ (arr_leaf p -> arr_value x) /\
   (map_leaf p -> map_value x) /\ (int_enum_leaf p -> int_value x)) <-> leaf_doc p x.
Proof.
  split.
  - intros (H0 & H1 & H2 & H3 & H4 & H5). split; [exact H0|]. intros t Ht. destruct t; cbn [is_kind kind_doc] in *; auto.
  - intros [H0 H]. exact (conj H0 (conj (H LStr) (conj (H LInt) (conj (H LArr) (conj (H LMap) (H LIntEnum)))))).
Qed.

Lemma dok_guard_iff p x (D : Prop) :
  (x <> JNull /\ (str_leaf p -> forall s0, x = JStr s0 -> utf8_len s0 = length s0) /\ (int_leaf p -> int_value x) /\ (arr_leaf p -> arr_value x) /\
   (map_leaf p -> map_value x) /\ (int_enum_leaf p -> int_value x) /\ D) <-> leaf_doc p x /\ D.
Proof. pose proof (leaf_doc_iff p x). tauto. Qed.

(* every leaf kind is exact.  The fuel is the one [field_present] leaves: one step less under the pointer of an optional field, which only a
   non-nillable type gets; each kind is exact from S (S g) on except maps, which are nillable and have the full fuel *)
Lemma leaf_exact f g fv self sc fname k p ty bp x (rn : str -> bool) (w : bool) :
  leaf p -> fname <> [] -> gen (S f) MInline self false p sc = Done (ty, bp) -> leaf_doc p x ->
  acc fname k p bp (if w || nillable_ty rn ty then S (S (S g)) else S (S g)) ty x = valid (S (S fv)) p x.
Proof.
  intros Hleaf Hfn Hgen [Hnn Hk].
  destruct Hleaf as [Hl|[Hl|[Hl|[Hl|[Hl|[Hl|[Hl|[Hl|[Hl|Hl]]]]]]]]].
  - (* strings *) destruct (_ || _); exact (str_leaf_exact idf cf defs fmt_ok env sdefs f _ (S fv) self sc fname k p ty bp x Hl Hgen Hfn (conj Hnn (Hk LStr Hl))).
  - (* integers *) destruct (_ || _); exact (int_leaf_exact idf cf defs fmt_ok env sdefs Hms f _ (S fv) self sc fname k p ty bp x Hl Hgen Hfn (Hk LInt Hl)).
  - (* booleans *) destruct (_ || _); exact (bool_leaf_exact idf cf defs fmt_ok env sdefs f _ (S fv) self sc fname k p ty bp x Hl Hgen Hnn).
  - (* numbers *) destruct (_ || _); exact (num_leaf_exact f _ (S fv) self sc fname k p ty bp x Hl Hgen Hfn Hnn).
  - (* arrays *) destruct (_ || _); exact (arr_leaf_exact f _ fv self sc fname k p ty bp x Hl Hgen Hfn Hnn (Hk LArr Hl)).
  - (* string enums *) destruct (_ || _); exact (typed_enum_exact IStr f _ (S fv) self sc fname k p ty bp x (enum_leaf_typed p Hl) Hgen Hnn).
  - (* maps *) rewrite (map_leaf_nillable rn f self sc p ty bp Hl Hgen), orb_true_r. exact (map_leaf_exact f g fv self sc fname k p ty bp x Hl Hgen Hnn (Hk LMap Hl)).
  - (* integer enums *) destruct (_ || _); exact (int_enum_leaf_exact idf cf defs fmt_ok env sdefs Hms f _ (S fv) self sc fname k p ty bp x Hl Hgen (Hk LIntEnum Hl)).
  - (* number enums *) destruct (_ || _); exact (typed_enum_exact INum f _ (S fv) self sc fname k p ty bp x (num_enum_leaf_typed p Hl) Hgen Hnn).
  - (* boolean enums *) destruct (_ || _); exact (typed_enum_exact IBool f _ (S fv) self sc fname k p ty bp x (bool_enum_leaf_typed p Hl) Hgen Hnn).
Qed.

Definition ref_prop (p : schema) (x : str) : Prop :=
  exists c, p = Sch c [] None false None [] [] /\ c_ref c = Some x /\ c_enum c = None /\ c_default c = None.

Lemma ref_default_none p x : ref_prop p x -> c_default (s_con p) = None.
Proof. intros (c & -> & _ & _ & Hd). exact Hd. Qed.

Lemma leaf_not_ref p x : leaf p -> ref_prop p x -> False.
Proof.
  intros Hl (c & -> & Hr & _). destruct (leaf_kind _ Hl) as [t Ht]. apply kind_tag, proj1 in Ht.
  unfold leaf_tag in Ht. cbn [s_con] in Ht. rewrite Hr in Ht. discriminate.
Qed.

Lemma gen_ref_prop f self sc p x d ty bp :
  ref_prop p x -> lookup x defs = Some d -> c_types (s_con d) = [SObject] ->
  gen f MInline self false p sc = Done (ty, bp) -> ty = TRef x.
Proof.
  intros (c & -> & Hr & He & _) Hl Pty H.
  destruct f as [|f]; [discriminate|]. rewrite gen_inline_named in H by (right; cbn [s_con]; congruence).
  destruct f as [|f]; [discriminate|]. rewrite gen_declared in H. cbn [s_con] in H. rewrite He in H.
  destruct f as [|f]; [discriminate|]. rewrite gen_type_ref with (x := x), Hl, Pty in H by assumption.
  cbn [rbind] in H. unfold declare in H. cbn [is_named_ty] in H. inversion H. reflexivity.
Qed.

Lemma valid_ref_prop fv p x d v : ref_prop p x -> lookup x sdefs = Some d -> valid (S fv) p v = valid fv d v.
Proof. intros (c & -> & Hr & _) Hl. rewrite (valid_ref _ _ _ _ _ x), Hl by exact Hr. reflexivity. Qed.

(* fuel: f / fd / fv (a / b / c in the nesting theorems) is generator / decoder / validation fuel.  Three generator steps, three decoding steps
   and two validation steps per level (a reference costs one decoding and one validation step, an optional field one decoding step, array
   items one of each at the innermost level).  The second argument is slack: any amount on top.  The generator needs some of it for the
   innermost leaves - one more step for an array, two for an enum, three for a map - hence fuelG 0 1, 0 2, 0 3 and 1 2 in the examples *)
Fixpoint fuelG (n a : nat) : nat := match n with O => S (S (S a)) | S m => S (S (S (fuelG m a))) end.
Fixpoint fuelD (n b : nat) : nat := match n with O => S (S (S (S b))) | S m => S (S (S (fuelD m b))) end.
Fixpoint fuelV (n c : nat) : nat := match n with O => S (S (S c)) | S m => S (S (fuelV m c)) end.

Lemma fuelD_S n b : S (fuelD n b) = fuelD n (S b).
Proof. induction n as [|m IH]; cbn [fuelD]; [reflexivity|]. rewrite <- IH. reflexivity. Qed.

Lemma fuelV_Sc n c : S (fuelV n c) = fuelV n (S c).
Proof. induction n as [|m IH]; cbn [fuelV]; [reflexivity|]. rewrite <- IH. reflexivity. Qed.

Lemma fuelV_SS n c : exists x, fuelV n c = S (S x).
Proof. destruct n; cbn [fuelV]; eexists; reflexivity. Qed.

Lemma fuelD_pos n b : exists x, fuelD n b = S x.
Proof. destruct n; cbn [fuelD]; eexists; reflexivity. Qed.

(* a scalar object of nesting depth at most n: its properties are leaves, such objects of depth below n written inline, or references to
   definitions that are such objects of depth below n (the definition is the same one for the generator and for the reference semantics, and
   the environment of declared types holds the type generated for it) *)
Fixpoint sobj (n : nat) (s : schema) : Prop :=
  plain_object s /\ c_types (s_con s) = [SObject] /\ s_addl s = None /\ s_addl_false s = false /\
  NoDup (map fst (s_props s)) /\ incl (c_required (s_con s)) (map fst (s_props s)) /\
  NoDup (map fst (prop_names idf (s_props s))) /\
  (forall fname kp, In (fname, kp) (prop_names idf (s_props s)) -> fname <> []) /\
  forall k p, In (k, p) (s_props s) ->
    leaf p \/
    match n with
    | O => False
    | S m =>
        (sobj m p /\ c_default (s_con p) = None) \/
        (exists x d u a bb, ref_prop p x /\ lookup x defs = Some d /\ lookup x sdefs = Some d /\ sobj m d /\ idf x <> [] /\
                            lookup x env = Some u /\ gen (fuelG m a) MDeclared (Some x) false d (idf x) = Done (u, bb))
    end.

(* the documents the statement is about: no nulls, ASCII strings, integer literals inside Go's int, distinct keys - at every level *)
Fixpoint dok (n : nat) (s : schema) (kv : list (str * json)) : Prop :=
  NoDup (map fst kv) /\
  forall k p x, In (k, p) (s_props s) -> lookup k kv = Some x ->
    x <> JNull /\ (str_leaf p -> forall s0, x = JStr s0 -> utf8_len s0 = length s0) /\ (int_leaf p -> int_value x) /\ (arr_leaf p -> arr_value x) /\ (map_leaf p -> map_value x) /\ (int_enum_leaf p -> int_value x) /\
    match n with
    | O => True
    | S m => forall kv', x = JObj kv' ->
               (sobj m p -> dok m p kv') /\ (forall y d, ref_prop p y -> lookup y sdefs = Some d -> dok m d kv')
    end.
Definition nested_ref (m : nat) (p : schema) : Prop :=
  exists x d u a bb, ref_prop p x /\ lookup x defs = Some d /\ lookup x sdefs = Some d /\ sobj m d /\ idf x <> [] /\
                     lookup x env = Some u /\ gen (fuelG m a) MDeclared (Some x) false d (idf x) = Done (u, bb).
Definition nested_or_ref (m : nat) (p : schema) : Prop := sobj m p \/ nested_ref m p.

Lemma sobj_facts n s : sobj n s -> plain_object s /\ c_types (s_con s) = [SObject].
Proof. destruct n; cbn [sobj]; intros (Pp & Pty & _); exact (conj Pp Pty). Qed.

Lemma sobj_no_tag n p : sobj n p -> leaf_tag p = None /\ c_ref (s_con p) = None.
Proof.
  intros H. destruct (sobj_facts n p H) as ((He & Hr & _ & Hp & _) & Hty). unfold leaf_tag. rewrite Hr, Hty, He.
  destruct (s_props p); [contradiction Hp; reflexivity|auto].
Qed.

(* the shape of [sobj], decided for closed schemas *)
Definition sobj_shape (s : schema) : bool :=
  match c_enum (s_con s), c_ref (s_con s), c_types (s_con s), s_props s, s_all_of s, s_any_of s, s_addl s with
  | None, None, [SObject], _ :: _, [], [], None =>
      negb (s_addl_false s) && nodupb (map fst (s_props s)) && forallb (fun k => mem k (map fst (s_props s))) (c_required (s_con s)) &&
      nodupb (map fst (prop_names idf (s_props s))) && forallb (fun np => match fst np with [] => false | _ => true end) (prop_names idf (s_props s))
  | _, _, _, _, _, _, _ => false
  end.

Lemma sobj_by_shape n s : sobj_shape s = true ->
  (forall k p, In (k, p) (s_props s) ->
     leaf p \/ match n with O => False | S m => (sobj m p /\ c_default (s_con p) = None) \/ nested_ref m p end) ->
  sobj n s.
Proof.
  unfold sobj_shape. intros H Hprops.
  destruct (c_enum (s_con s)) eqn:Ee; [discriminate|]. destruct (c_ref (s_con s)) eqn:Er; [discriminate|].
  destruct (c_types (s_con s)) as [|[] [|]] eqn:Et; try discriminate. destruct (s_props s) as [|kp ps] eqn:Ep; [discriminate|].
  destruct (s_all_of s) eqn:Ea; [|discriminate]. destruct (s_any_of s) eqn:Ey; [|discriminate]. destruct (s_addl s) eqn:Ed; [discriminate|].
  rewrite <- Ep in *. apply andb_true_iff in H. destruct H as [H Hne]. apply andb_true_iff in H. destruct H as [H Nn]. apply andb_true_iff in H. destruct H as [H Hreq].
  apply andb_true_iff in H. destruct H as [Haf Np]. apply negb_true_iff in Haf.
  assert (Hs : plain_object s /\ c_types (s_con s) = [SObject] /\ s_addl s = None /\ s_addl_false s = false /\
               NoDup (map fst (s_props s)) /\ incl (c_required (s_con s)) (map fst (s_props s)) /\
               NoDup (map fst (prop_names idf (s_props s))) /\ (forall fname kp, In (fname, kp) (prop_names idf (s_props s)) -> fname <> [])).
  { repeat split; try assumption; try (apply nodupb_NoDup; assumption).
    - unfold determine_type. rewrite Et. reflexivity.
    - rewrite Ep. discriminate.
    - intros k Hk. apply mem_In. rewrite forallb_forall in Hreq. exact (Hreq k Hk).
    - intros fname kp0 Hin ->. rewrite forallb_forall in Hne. discriminate (Hne _ Hin). }
  destruct Hs as (S1 & S2 & S3 & S4 & S5 & S6 & S7 & S8). destruct n; cbn [sobj]; exact (conj S1 (conj S2 (conj S3 (conj S4 (conj S5 (conj S6 (conj S7 (conj S8 Hprops)))))))).
Qed.

(* [dok] decided, for closed documents; where [dok] asks something of every [sobj] or every reference, the schema is read instead:
   a reference names its definition, and what is neither a leaf nor a reference is taken for a nested object *)
Definition nonnull (x : json) : bool := match x with JNull => false | _ => true end.
Definition guardb (t : option lkind) (x : json) : bool :=
  match t, x with
  | Some LStr, JStr s => utf8_len s =? length s
  | Some (LInt | LIntEnum), JNum n => nlit_int n && (Qden (nq n) =? 1)%positive && in_range KInt (Qnum (nq n))
  | Some LArr, JArr l => forallb nonnull l
  | Some LMap, JObj kv => forallb (fun y => nonnull (snd y)) kv
  | _, _ => true
  end.
Fixpoint dokb (n : nat) (s : schema) (kv : list (str * json)) : bool :=
  nodupb (map fst kv) &&
  forallb (fun kp : str * schema =>
             match lookup (fst kp) kv with
             | None => true
             | Some x =>
                 nonnull x && guardb (leaf_tag (snd kp)) x &&
                 match n, x with
                 | S m, JObj kv' =>
                     match c_ref (s_con (snd kp)), leaf_tag (snd kp) with
                     | Some y, _ => match lookup y sdefs with Some d => dokb m d kv' | None => true end
                     | None, None => dokb m (snd kp) kv'
                     | None, Some _ => true
                     end
                 | _, _ => true
                 end
             end) (s_props s).

Lemma nonnull_neq x : nonnull x = true -> x <> JNull.
Proof. intros H ->. discriminate H. Qed.

Lemma guardb_sound p x : nonnull x = true -> guardb (leaf_tag p) x = true -> leaf_doc p x.
Proof.
  intros Hn Hg. pose proof (nonnull_neq x Hn) as Hx. split; [exact Hx|]. intros t Ht. rewrite (proj1 (kind_tag t p Ht)) in Hg.
  assert (Hi : guardb (Some LInt) x = true -> int_value x).
  { intros Hb. split; [exact Hx|]. intros [[z d] lit] ->. cbn [guardb nq nlit_int Qden Qnum] in Hb.
    apply andb_true_iff in Hb. destruct Hb as [Hb Hr]. apply andb_true_iff in Hb. destruct Hb as [Hlit Hd].
    apply Pos.eqb_eq in Hd. subst d lit. exists z. split; [reflexivity|exact Hr]. }
  destruct t; cbn [kind_doc]; try exact I.
  - (* strings *) intros s0 ->. apply Nat.eqb_eq. exact Hg.
  - (* integers *) exact (Hi Hg).
  - (* arrays *) intros l -> y Hy. apply nonnull_neq. cbn [guardb] in Hg. rewrite forallb_forall in Hg. exact (Hg y Hy).
  - (* maps *) intros kv -> y Hy. apply nonnull_neq. cbn [guardb] in Hg. rewrite forallb_forall in Hg. exact (Hg y Hy).
  - (* integer enums *) exact (Hi Hg).
Qed.

Lemma dokb_sound n : forall s kv, dokb n s kv = true -> dok n s kv.
Proof.
  induction n as [|m IH]; intros s kv H; cbn [dokb] in H.
  all: apply andb_true_iff in H; destruct H as [Nk H]; rewrite forallb_forall in H.
  all: cbn [dok]; split; [exact (nodupb_NoDup _ Nk)|]; intros k p x Hin Hl.
  (* the three tests on the value of a present key: not null, the guard of its kind, one level down *)
  all: specialize (H (k, p) Hin); cbn [fst snd] in H; rewrite Hl in H.
  all: apply andb_true_iff in H; destruct H as [H Hdeep]; apply andb_true_iff in H; destruct H as [Hnn Hg].
  all: refine (proj2 (dok_guard_iff p x _) (conj (guardb_sound p x Hnn Hg) _)).
  - exact I.
  - (* an [sobj] has no reference and no tag, so [dokb] went into it; a reference names the definition [dokb] looked up *)
    intros kv' ->. split.
    + intros Hs. destruct (sobj_no_tag m p Hs) as [Ht Hr]. rewrite Hr, Ht in Hdeep. exact (IH p kv' Hdeep).
    + intros y d (c & -> & Hr & _) Hd. cbn [s_con] in Hdeep. rewrite Hr, Hd in Hdeep. exact (IH d kv' Hdeep).
Qed.

Lemma declared_non_object f g fv self sub s scope t b x :
  plain_object s -> c_types (s_con s) = [SObject] -> x <> JNull -> (forall kv, x <> JObj kv) ->
  gen f MDeclared self sub s scope = Done (t, b) -> is_ok (dec g t x) = valid fv s x.
Proof.
  intros Hp Hty Hx Ho Hg. destruct (declared_struct_shape idf cf defs f self sub s scope t b Hp Hg) as (fs & plan & ->).
  rewrite (dec_struct_type fmt_ok env g scope fs plan x Hx Ho). symmetry. apply valid_non_object; [apply Hp|exact Hty|exact Ho].
Qed.

Lemma level_with_leaves f fd fv self sub s scope t bb kv (other : schema -> Prop) :
  scope <> [] ->
  plain_object s -> c_types (s_con s) = [SObject] -> s_addl s = None -> s_addl_false s = false ->
  NoDup (map fst (s_props s)) -> incl (c_required (s_con s)) (map fst (s_props s)) ->
  NoDup (map fst (prop_names idf (s_props s))) -> (forall fname kp, In (fname, kp) (prop_names idf (s_props s)) -> fname <> []) ->
  (forall k p, In (k, p) (s_props s) -> leaf p \/ (other p /\ c_default (s_con p) = None)) ->
  NoDup (map fst kv) ->
  (forall k p x, In (k, p) (s_props s) -> lookup k kv = Some x -> leaf_doc p x) ->
  (forall fname k p ty bp x, In (k, p) (s_props s) -> other p -> fname <> [] ->
     gen (S f) MInline self false p (scope ++ fname) = Done (ty, bp) -> lookup k kv = Some x -> x <> JNull ->
     acc fname k p bp (if mem k (c_required (s_con s)) || nillable_ty (ref_nillable defs self) ty then S (S (S fd)) else S (S fd)) ty x = valid (S (S fv)) p x) ->
  gen (S (S (S f))) MDeclared self sub s scope = Done (t, bb) ->
  is_ok (dec (S (S (S (S fd)))) t (JObj kv)) = valid (S (S (S fv))) s (JObj kv).
Proof.
  intros Hsc Hp Hty Ha Haf Np Hreq Nn Hne Hprops Nk Hval Hother Hg.
  apply (level_of_values idf cf defs fmt_ok env sdefs (S f) (S (S fd)) (S (S fv)) self sub s scope t bb kv Hom Hsc Hp Hty Ha Haf); try assumption.
  - intros k p Hin. destruct (Hprops k p Hin) as [Hl|[_ Hd]]; [exact (leaf_default_none p Hl)|exact Hd].
  - intros fname k p ty bp x Hinp Hfn Hgen El. pose proof (Hval k p x Hinp El) as Hx. split; [exact (proj1 Hx)|].
    destruct (Hprops k p Hinp) as [Hl|[Hoth _]]; [exact (leaf_exact f fd fv self _ fname k p ty bp x _ _ Hl Hfn Hgen Hx)|exact (Hother fname k p ty bp x Hinp Hoth Hfn Hgen El (proj1 Hx))].
Qed.

(* the statement for every document value, so that the induction hypothesis applies to the value of an object-valued property as it stands *)
Lemma nested_value_exact : forall n a b c self sub s scope t bb x,
  scope <> [] -> sobj n s -> x <> JNull -> (forall kv, x = JObj kv -> dok n s kv) ->
  gen (fuelG n a) MDeclared self sub s scope = Done (t, bb) ->
  is_ok (dec (fuelD n b) t x) = valid (fuelV n c) s x.
Proof.
  induction n as [|m IH]; intros a b c self sub s scope t bb x Hsc Hs Hx Hk Hg.
  (* both depths start alike: a document that is not an object fails on both sides; for an object, [sobj] and [dok] are opened *)
  all: pose proof (sobj_facts _ s Hs) as (Hp & Hty).
  all: destruct x as [| | | | |kv]; [contradiction| | | | |specialize (Hk kv eq_refl)];
         try exact (declared_non_object _ _ _ self sub s scope t bb _ Hp Hty Hx ltac:(discriminate) Hg).
  all: cbn [sobj] in Hs; destruct Hs as (_ & _ & Ha & Haf & Np & Hreq & Nn & Hne & Hprops).
  all: cbn [dok] in Hk; destruct Hk as (Nk & Hval).
  all: assert (Hdoc : forall k p x, In (k, p) (s_props s) -> lookup k kv = Some x -> leaf_doc p x)
         by (intros k p x Hin Hl; exact (proj1 (proj1 (dok_guard_iff p x _) (Hval k p x Hin Hl)))).
  all: cbn [fuelG fuelD fuelV] in *.
  - apply (level_with_leaves a b c self sub s scope t bb kv (fun _ => False)); try assumption.
    + intros k p Hin. destruct (Hprops k p Hin) as [Hl|[]]. left; exact Hl.
    + intros fname k p ty bp x _ [].
  - destruct (fuelV_SS m c) as [fv' Hfv]. rewrite Hfv. destruct (fuelD_pos m b) as [fdx Hfd]. rewrite Hfd.
    apply (level_with_leaves (fuelG m a) fdx (S fv') self sub s scope t bb kv (nested_or_ref m)); try assumption.
    + intros k p Hin. destruct (Hprops k p Hin) as [Hl|[[Hn Hd]|Hr]]; [left; exact Hl|right; split; [left; exact Hn|exact Hd]|].
      right. split; [right; exact Hr|]. destruct Hr as (x & d & u & a0 & b0 & Hrp & _). exact (ref_default_none p x Hrp).
    + (* the other properties: the second fuel argument is slack and S (fuelD m b) = fuelD m (S b), so the induction hypothesis, taken at b + 2 for
         a required field and at b + 1 under the pointer of an optional one (one less through a reference, whose lookup is a step), absorbs
         what the field costs; likewise for validation *)
      intros fname k p ty bp x Hinp Hother Hfn Hgen El Hnn. rewrite <- Hfv, <- Hfd.
      destruct (proj1 (dok_guard_iff p x _) (Hval k p x Hinp El)) as [_ Hdeep].
      destruct Hother as [Hnest|(y & d & u & a0 & b0 & Hrp & Hld & Hls & Hsd & Hidf & Hlu & Hgd)].
      * (* an object written inline: the check attached to it is the nested struct's own method, one level down *)
        pose proof (sobj_facts m p Hnest) as (Pp & Pty). pose proof Pp as (Pe & Pr & _ & _ & Pall & Pany).
        rewrite (gen_inline_object_eq idf cf defs _ self false p (scope ++ fname) Pe Pr Pall Pany Pty) in Hgen.
        assert (Hscn : scope ++ fname <> []) by (intros E; apply app_eq_nil in E; destruct E as [_ E]; exact (Hfn E)).
        destruct (declared_struct_shape idf cf defs _ self false p (scope ++ fname) ty bp Pp Hgen) as (fs & plan & ->).
        rewrite accepts_plain by reflexivity. cbn [nillable_ty]. rewrite orb_false_r, fuelV_Sc.
        destruct (mem k (c_required (s_con s))); rewrite !fuelD_S;
          exact (IH a _ (S c) self false p (scope ++ fname) _ bp x Hscn Hnest Hnn (fun kv' E => proj1 (Hdeep kv' E) Hnest) Hgen).
      * (* a reference to an object definition: the declared type of the definition, one level down *)
        pose proof (sobj_facts m d Hsd) as (Pd & Pdty).
        pose proof (gen_ref_prop _ self (scope ++ fname) p y d ty bp Hrp Hld Pdty Hgen) as ->.
        rewrite accepts_plain by reflexivity. cbn [nillable_ty]. rewrite (def_not_nillable defs y d self Hld Pd), orb_false_r, (valid_ref_prop _ p y d x Hrp Hls).
        destruct (mem k (c_required (s_con s))); rewrite (dec_ref_transparent fmt_ok env _ y u x Hlu), ?fuelD_S;
          exact (IH a0 _ c (Some y) false d (idf y) u b0 x Hidf Hsd Hnn (fun kv' E => proj2 (Hdeep kv' E) y d Hrp Hls) Hgd).
Qed.

Theorem nested_object_exact : forall n a b c self sub s scope t bb kv,
  scope <> [] -> sobj n s -> dok n s kv ->
  gen (fuelG n a) MDeclared self sub s scope = Done (t, bb) ->
  is_ok (dec (fuelD n b) t (JObj kv)) = valid (fuelV n c) s (JObj kv).
Proof.
  intros n a b c self sub s scope t bb kv Hsc Hs Hk Hg.
  apply (nested_value_exact n a b c self sub s scope t bb (JObj kv) Hsc Hs); [discriminate| |exact Hg]. intros kv' E. inversion E; subst kv'. exact Hk.
Qed.

Corollary nested_docs_exact n a b c self sub s scope t bb docs :
  scope <> [] -> sobj n s -> forallb (dokb n s) docs = true ->
  gen (fuelG n a) MDeclared self sub s scope = Done (t, bb) ->
  forall kv, In kv docs -> is_ok (dec (fuelD n b) t (JObj kv)) = valid (fuelV n c) s (JObj kv).
Proof.
  intros Hsc Hs Hd Hg kv Hkv. rewrite forallb_forall in Hd. exact (nested_object_exact n a b c self sub s scope t bb kv Hsc Hs (dokb_sound n s kv (Hd kv Hkv)) Hg).
Qed.

Corollary docs_inhabited n a b c s scope docs vs :
  scope <> [] -> sobj n s -> forallb (dokb n s) docs = true ->
  (exists t bb, gen (fuelG n a) MDeclared None false s scope = Done (t, bb)) ->
  map (fun kv => valid (fuelV n c) s (JObj kv)) docs = vs ->
  exists t bb, gen (fuelG n a) MDeclared None false s scope = Done (t, bb) /\
    (forall kv, In kv docs -> is_ok (dec (fuelD n b) t (JObj kv)) = valid (fuelV n c) s (JObj kv)) /\
    map (fun kv => valid (fuelV n c) s (JObj kv)) docs = vs.
Proof.
  intros Hsc Hs Hd (t & bb & Hg) Hv. exists t, bb. split; [exact Hg|]. split; [|exact Hv].
  exact (nested_docs_exact n a b c None false s scope t bb docs Hsc Hs Hd Hg).
Qed.

End Nested.


(* {o: {a: string, minLength 2; required a}, b: string, maxLength 3; required o}: a valid document and one whose o.a is too short *)
Definition ex_inner : schema := LevelP.ex_schema.
Definition ex_outer : schema :=
  Sch (mkC [SObject] None None [[111]%N] 0 0 0 0 None None (mkBounds None None None None) None None)
      [([111]%N, ex_inner); ([98]%N, ex_leaf 0 3 None)] None false None [] [].
Definition ex_outer_doc : list (str * json) := [([111]%N, JObj LevelP.ex_doc); ([98]%N, JStr [120]%N)].
Definition ex_outer_bad : list (str * json) := [([111]%N, JObj [([97]%N, JStr [120]%N)])].     (* o.a too short *)

Lemma ex_leaf_is_leaf mn mx : leaf (ex_leaf mn mx None).
Proof. left. eexists. repeat split; reflexivity. Qed.

Lemma ex_inner_sobj : sobj (fun s => s) (mkCfg false false) [] [] [] 0 ex_inner.
Proof. apply sobj_by_shape; [reflexivity|]. intros k p [H|[H|[]]]; inversion H; subst; left; apply ex_leaf_is_leaf. Qed.

Lemma ex_outer_sobj : sobj (fun s => s) (mkCfg false false) [] [] [] 1 ex_outer.
Proof.
  apply sobj_by_shape; [reflexivity|]. intros k p [H|[H|[]]]; inversion H; subst.
  - right. left. split; [exact ex_inner_sobj|reflexivity].
  - left. apply ex_leaf_is_leaf.
Qed.

Example nested_inhabited :
  exists t b, Gen.gen (fun s => s) (mkCfg false false) [] (fuelG 1 0) MDeclared None false ex_outer [82]%N = Done (t, b) /\
    is_ok (Exec.dec (fun _ _ => true) [] (fuelD 1 0) t (JObj ex_outer_doc)) = Valid.valid (fun _ _ => true) [] (fuelV 1 0) ex_outer (JObj ex_outer_doc) /\
    Valid.valid (fun _ _ => true) [] (fuelV 1 0) ex_outer (JObj ex_outer_doc) = true /\
    is_ok (Exec.dec (fun _ _ => true) [] (fuelD 1 0) t (JObj ex_outer_bad)) = Valid.valid (fun _ _ => true) [] (fuelV 1 0) ex_outer (JObj ex_outer_bad) /\
    Valid.valid (fun _ _ => true) [] (fuelV 1 0) ex_outer (JObj ex_outer_bad) = false.
Proof.
  assert (Hgen : exists t b, Gen.gen (fun s => s) (mkCfg false false) [] (fuelG 1 0) MDeclared None false ex_outer [82]%N = Done (t, b)) by (eexists; eexists; vm_compute; reflexivity).
  destruct Hgen as (t & b & Hgen). exists t, b. split; [exact Hgen|].
  pose proof (nested_docs_exact (fun s => s) (mkCfg false false) [] (fun _ _ => true) [] [] eq_refl eq_refl 1 0 0 0 None false ex_outer [82]%N t b [ex_outer_doc; ex_outer_bad]
                ltac:(discriminate) ex_outer_sobj eq_refl Hgen) as Hex.
  split; [exact (Hex _ (or_introl eq_refl))|]. split; [vm_compute; reflexivity|]. split; [exact (Hex _ (or_intror (or_introl eq_refl)))|vm_compute; reflexivity].
Qed.

(* {tags: [string] with 1..2 items (required), w: number >= 0.5}: a valid document, three items, w too small *)
Definition ex_str_item : schema := Sch (mkC [SString] None None [] 0 0 0 0 None None (mkBounds None None None None) None None) [] None false None [] [].
Definition ex_tags : schema := Sch (mkC [SArray] None None [] 1 2 0 0 None None (mkBounds None None None None) None None) [] None false (Some ex_str_item) [] [].
Definition ex_w : schema := Sch (mkC [SNumber] None None [] 0 0 0 0 None None (mkBounds (Some (Qmake 1 2)) None None None) None None) [] None false None [] [].
Definition ex_flat : schema :=
  Sch (mkC [SObject] None None [[116]%N] 0 0 0 0 None None (mkBounds None None None None) None None)
      [([116]%N, ex_tags); ([119]%N, ex_w)] None false None [] [].
Definition ex_flat_ok : list (str * json) := [([116]%N, JArr [JStr [97]%N; JStr [98]%N]); ([119]%N, JQ (Qmake 3 4))].
Definition ex_flat_long : list (str * json) := [([116]%N, JArr [JStr [97]%N; JStr [98]%N; JStr [99]%N])].     (* three items *)
Definition ex_flat_low : list (str * json) := [([116]%N, JArr [JStr [97]%N]); ([119]%N, JQ (Qmake 1 4))].          (* w below the minimum *)

Lemma ex_str_item_plain : plain_item IStr ex_str_item.
Proof. eexists. repeat split; reflexivity. Qed.

Lemma ex_flat_sobj : sobj (fun s => s) (mkCfg false false) [] [] [] 0 ex_flat.
Proof.
  apply sobj_by_shape; [reflexivity|]. intros k p [H|[H|[]]]; inversion H; subst; left.
  - apply (kind_leaf LArr). exists IStr. eexists. exists ex_str_item. repeat split; try reflexivity. exact ex_str_item_plain.
  - apply (kind_leaf LNum). eexists. repeat split; reflexivity.
Qed.

Example flat_inhabited :
  exists t b, Gen.gen (fun s => s) (mkCfg false false) [] (fuelG 0 1) MDeclared None false ex_flat [82]%N = Done (t, b) /\
    (forall kv, In kv [ex_flat_ok; ex_flat_long; ex_flat_low] ->
       is_ok (Exec.dec (fun _ _ => true) [] (fuelD 0 0) t (JObj kv)) = Valid.valid (fun _ _ => true) [] (fuelV 0 0) ex_flat (JObj kv)) /\
    map (fun kv => Valid.valid (fun _ _ => true) [] (fuelV 0 0) ex_flat (JObj kv)) [ex_flat_ok; ex_flat_long; ex_flat_low] = [true; false; false].
Proof.
  apply (docs_inhabited (fun s => s) (mkCfg false false) [] (fun _ _ => true) [] [] eq_refl eq_refl 0 1 0 0 ex_flat [82]%N [ex_flat_ok; ex_flat_long; ex_flat_low] _ ltac:(discriminate) ex_flat_sobj eq_refl);
    [eexists; eexists; vm_compute; reflexivity|vm_compute; reflexivity].
Qed.

(* {r: $ref D (required), b: string maxLength 3}, D the inner object above: a valid document and one whose r.a is too short *)
Definition ex_D : str := [68]%N.
Definition ex_defs : list (str * schema) := [(ex_D, ex_inner)].
Definition ex_tD : gty :=
  Eval vm_compute in match Gen.gen (fun s => s) (mkCfg false false) ex_defs (fuelG 0 0) MDeclared (Some ex_D) false ex_inner ex_D with Done (t, _) => t | _ => TIface end.
Definition ex_env : list (str * gty) := [(ex_D, ex_tD)].
Definition ex_refp : schema := Sch (mkC [] (Some ex_D) None [] 0 0 0 0 None None (mkBounds None None None None) None None) [] None false None [] [].
Definition ex_refroot : schema :=
  Sch (mkC [SObject] None None [[114]%N] 0 0 0 0 None None (mkBounds None None None None) None None)
      [([114]%N, ex_refp); ([98]%N, ex_leaf 0 3 None)] None false None [] [].
Definition ex_ref_doc : list (str * json) := [([114]%N, JObj LevelP.ex_doc); ([98]%N, JStr [120]%N)].
Definition ex_ref_bad : list (str * json) := [([114]%N, JObj [([97]%N, JStr [120]%N)])].

Lemma ex_inner_sobj_defs : sobj (fun s => s) (mkCfg false false) ex_defs ex_env ex_defs 0 ex_inner.
Proof. exact ex_inner_sobj. Qed.

Lemma ex_refroot_sobj : sobj (fun s => s) (mkCfg false false) ex_defs ex_env ex_defs 1 ex_refroot.
Proof.
  apply sobj_by_shape; [reflexivity|]. intros k p [H|[H|[]]]; inversion H; subst.
  - right. right. exists ex_D, ex_inner, ex_tD, 0. eexists.
    split; [eexists; repeat split; reflexivity|]. split; [reflexivity|]. split; [reflexivity|]. split; [exact ex_inner_sobj_defs|].
    split; [discriminate|]. split; [reflexivity|]. vm_compute. reflexivity.
  - left. apply ex_leaf_is_leaf.
Qed.

Example ref_inhabited :
  exists t b, Gen.gen (fun s => s) (mkCfg false false) ex_defs (fuelG 1 0) MDeclared None false ex_refroot [82]%N = Done (t, b) /\
    (forall kv, In kv [ex_ref_doc; ex_ref_bad] ->
       is_ok (Exec.dec (fun _ _ => true) ex_env (fuelD 1 0) t (JObj kv)) = Valid.valid (fun _ _ => true) ex_defs (fuelV 1 0) ex_refroot (JObj kv)) /\
    map (fun kv => Valid.valid (fun _ _ => true) ex_defs (fuelV 1 0) ex_refroot (JObj kv)) [ex_ref_doc; ex_ref_bad] = [true; false].
Proof.
  apply (docs_inhabited (fun s => s) (mkCfg false false) ex_defs (fun _ _ => true) ex_env ex_defs eq_refl eq_refl 1 0 0 0 ex_refroot [82]%N [ex_ref_doc; ex_ref_bad] _ ltac:(discriminate) ex_refroot_sobj eq_refl);
    [eexists; eexists; vm_compute; reflexivity|vm_compute; reflexivity].
Qed.

(* {c: string enum [r, g] (required)}: c = "r", "x", 1, and no c *)
Definition ex_color : schema := Sch (mkC [SString] None (Some [JStr [114]%N; JStr [103]%N]) [] 0 0 0 0 None None (mkBounds None None None None) None None) [] None false None [] [].
Definition ex_enum_obj : schema :=
  Sch (mkC [SObject] None None [[99]%N] 0 0 0 0 None None (mkBounds None None None None) None None) [([99]%N, ex_color)] None false None [] [].
Definition ex_enum_docs : list (list (str * json)) := [[([99]%N, JStr [114]%N)]; [([99]%N, JStr [120]%N)]; [([99]%N, JInt 1)]; []].

Lemma ex_enum_sobj : sobj (fun s => s) (mkCfg false false) [] [] [] 0 ex_enum_obj.
Proof.
  apply sobj_by_shape; [reflexivity|]. intros k p [H|[]]; inversion H; subst. left. apply (kind_leaf LEnum).
  eexists. exists [[114]%N; [103]%N]. repeat split; try reflexivity; discriminate.
Qed.

Example enum_inhabited :
  exists t b, Gen.gen (fun s => s) (mkCfg false false) [] (fuelG 0 2) MDeclared None false ex_enum_obj [82]%N = Done (t, b) /\
    (forall kv, In kv ex_enum_docs ->
       is_ok (Exec.dec (fun _ _ => true) [] (fuelD 0 0) t (JObj kv)) = Valid.valid (fun _ _ => true) [] (fuelV 0 0) ex_enum_obj (JObj kv)) /\
    map (fun kv => Valid.valid (fun _ _ => true) [] (fuelV 0 0) ex_enum_obj (JObj kv)) ex_enum_docs = [true; false; false; false].
Proof.
  apply (docs_inhabited (fun s => s) (mkCfg false false) [] (fun _ _ => true) [] [] eq_refl eq_refl 0 2 0 0 ex_enum_obj [82]%N ex_enum_docs _ ltac:(discriminate) ex_enum_sobj eq_refl);
    [eexists; eexists; vm_compute; reflexivity|vm_compute; reflexivity].
Qed.

(* {labels: map of strings (required)}: two strings, an integer value, a string for the map, the empty map, no labels *)
Definition ex_labels : schema := Sch (mkC [SObject] None None [] 0 0 0 0 None None (mkBounds None None None None) None None) [] (Some ex_str_item) false None [] [].
Definition ex_map_obj : schema :=
  Sch (mkC [SObject] None None [[108]%N] 0 0 0 0 None None (mkBounds None None None None) None None) [([108]%N, ex_labels)] None false None [] [].
Definition ex_map_docs : list (list (str * json)) :=
  [[([108]%N, JObj [([97]%N, JStr [120]%N); ([98]%N, JStr [121]%N)])]; [([108]%N, JObj [([97]%N, JInt 1)])]; [([108]%N, JStr [120]%N)]; [([108]%N, JObj [])]; []].

Lemma ex_map_sobj : sobj (fun s => s) (mkCfg false false) [] [] [] 0 ex_map_obj.
Proof.
  apply sobj_by_shape; [reflexivity|]. intros k p [H|[]]; inversion H; subst. left. apply (kind_leaf LMap).
  exists IStr. eexists. exists ex_str_item. repeat split; try reflexivity. exact ex_str_item_plain.
Qed.

Example map_inhabited :
  exists t b, Gen.gen (fun s => s) (mkCfg false false) [] (fuelG 0 3) MDeclared None false ex_map_obj [82]%N = Done (t, b) /\
    (forall kv, In kv ex_map_docs ->
       is_ok (Exec.dec (fun _ _ => true) [] (fuelD 0 0) t (JObj kv)) = Valid.valid (fun _ _ => true) [] (fuelV 0 0) ex_map_obj (JObj kv)) /\
    map (fun kv => Valid.valid (fun _ _ => true) [] (fuelV 0 0) ex_map_obj (JObj kv)) ex_map_docs = [true; false; false; true; false].
Proof.
  apply (docs_inhabited (fun s => s) (mkCfg false false) [] (fun _ _ => true) [] [] eq_refl eq_refl 0 3 0 0 ex_map_obj [82]%N ex_map_docs _ ltac:(discriminate) ex_map_sobj eq_refl);
    [eexists; eexists; vm_compute; reflexivity|vm_compute; reflexivity].
Qed.

(* {i: {level: integer enum [1, 2.5, 3] (required)}}: i.level = 1, 2, 3, i without level, no i *)
Definition ex_ie_inner : schema :=
  Sch (mkC [SObject] None None [[108]%N] 0 0 0 0 None None (mkBounds None None None None) None None) [([108]%N, ex_int_enum)] None false None [] [].
Definition ex_ie_outer : schema :=
  Sch (mkC [SObject] None None [] 0 0 0 0 None None (mkBounds None None None None) None None) [([105]%N, ex_ie_inner)] None false None [] [].
Definition ex_ie_nested_docs : list (list (str * json)) :=
  [[([105]%N, JObj [([108]%N, JInt 1)])]; [([105]%N, JObj [([108]%N, JInt 2)])]; [([105]%N, JObj [([108]%N, JInt 3)])]; [([105]%N, JObj [])]; []].

Lemma ex_ie_inner_sobj : sobj (fun s => s) (mkCfg false false) [] [] [] 0 ex_ie_inner.
Proof. apply sobj_by_shape; [reflexivity|]. intros k p [H|[]]; inversion H; subst. left. exact (kind_leaf LIntEnum _ (proj1 int_enum_generated_inhabited)). Qed.

Lemma ex_ie_outer_sobj : sobj (fun s => s) (mkCfg false false) [] [] [] 1 ex_ie_outer.
Proof. apply sobj_by_shape; [reflexivity|]. intros k p [H|[]]; inversion H; subst. right. left. split; [exact ex_ie_inner_sobj|reflexivity]. Qed.

Example int_enum_nested_inhabited :
  exists t b, Gen.gen (fun s => s) (mkCfg false false) [] (fuelG 1 2) MDeclared None false ex_ie_outer [82]%N = Done (t, b) /\
    (forall kv, In kv ex_ie_nested_docs ->
       is_ok (Exec.dec (fun _ _ => true) [] (fuelD 1 0) t (JObj kv)) = Valid.valid (fun _ _ => true) [] (fuelV 1 0) ex_ie_outer (JObj kv)) /\
    map (fun kv => Valid.valid (fun _ _ => true) [] (fuelV 1 0) ex_ie_outer (JObj kv)) ex_ie_nested_docs = [true; false; true; false; true].
Proof.
  apply (docs_inhabited (fun s => s) (mkCfg false false) [] (fun _ _ => true) [] [] eq_refl eq_refl 1 2 0 0 ex_ie_outer [82]%N ex_ie_nested_docs _ ltac:(discriminate) ex_ie_outer_sobj eq_refl);
    [eexists; eexists; vm_compute; reflexivity|vm_compute; reflexivity].
Qed.

(* {r: number enum [0.5, 1, 2.25] (required)}: r = 0.5, 1, 2, "x", and no r *)
Definition ex_ratio : schema :=
  Sch (mkC [SNumber] None (Some (map JNum [mkNum (Qmake 1 2) false; mkNum (Qmake 1 1) true; mkNum (Qmake 9 4) false])) [] 0 0 0 0 None None (mkBounds None None None None) None None) [] None false None [] [].
Definition ex_ne_obj : schema :=
  Sch (mkC [SObject] None None [[114]%N] 0 0 0 0 None None (mkBounds None None None None) None None) [([114]%N, ex_ratio)] None false None [] [].
Definition ex_ne_docs : list (list (str * json)) :=
  [[([114]%N, JQ (Qmake 1 2))]; [([114]%N, JInt 1)]; [([114]%N, JInt 2)]; [([114]%N, JStr [120]%N)]; []].

Lemma ex_ratio_leaf : num_enum_leaf ex_ratio.
Proof. eexists. eexists. repeat split; try reflexivity; discriminate. Qed.

Lemma ex_ne_sobj : sobj (fun s => s) (mkCfg false false) [] [] [] 0 ex_ne_obj.
Proof. apply sobj_by_shape; [reflexivity|]. intros k p [H|[]]; inversion H; subst. left. exact (kind_leaf LNumEnum _ ex_ratio_leaf). Qed.

Example num_enum_inhabited :
  exists t b, Gen.gen (fun s => s) (mkCfg false false) [] (fuelG 0 2) MDeclared None false ex_ne_obj [82]%N = Done (t, b) /\
    (forall kv, In kv ex_ne_docs ->
       is_ok (Exec.dec (fun _ _ => true) [] (fuelD 0 0) t (JObj kv)) = Valid.valid (fun _ _ => true) [] (fuelV 0 0) ex_ne_obj (JObj kv)) /\
    map (fun kv => Valid.valid (fun _ _ => true) [] (fuelV 0 0) ex_ne_obj (JObj kv)) ex_ne_docs = [true; true; false; false; false].
Proof.
  apply (docs_inhabited (fun s => s) (mkCfg false false) [] (fun _ _ => true) [] [] eq_refl eq_refl 0 2 0 0 ex_ne_obj [82]%N ex_ne_docs _ ltac:(discriminate) ex_ne_sobj eq_refl);
    [eexists; eexists; vm_compute; reflexivity|vm_compute; reflexivity].
Qed.

(* {on: boolean enum [true] (required)}: on = true, false, "x", and no on *)
Definition ex_flag : schema :=
  Sch (mkC [SBoolean] None (Some (map JBool [true])) [] 0 0 0 0 None None (mkBounds None None None None) None None) [] None false None [] [].
Definition ex_be_obj : schema :=
  Sch (mkC [SObject] None None [[111]%N] 0 0 0 0 None None (mkBounds None None None None) None None) [([111]%N, ex_flag)] None false None [] [].
Definition ex_be_docs : list (list (str * json)) := [[([111]%N, JBool true)]; [([111]%N, JBool false)]; [([111]%N, JStr [120]%N)]; []].

Lemma ex_flag_leaf : bool_enum_leaf ex_flag.
Proof. eexists. eexists. repeat split; try reflexivity; discriminate. Qed.

Lemma ex_be_sobj : sobj (fun s => s) (mkCfg false false) [] [] [] 0 ex_be_obj.
Proof. apply sobj_by_shape; [reflexivity|]. intros k p [H|[]]; inversion H; subst. left. exact (kind_leaf LBoolEnum _ ex_flag_leaf). Qed.

Example bool_enum_inhabited :
  exists t b, Gen.gen (fun s => s) (mkCfg false false) [] (fuelG 0 2) MDeclared None false ex_be_obj [82]%N = Done (t, b) /\
    (forall kv, In kv ex_be_docs ->
       is_ok (Exec.dec (fun _ _ => true) [] (fuelD 0 0) t (JObj kv)) = Valid.valid (fun _ _ => true) [] (fuelV 0 0) ex_be_obj (JObj kv)) /\
    map (fun kv => Valid.valid (fun _ _ => true) [] (fuelV 0 0) ex_be_obj (JObj kv)) ex_be_docs = [true; false; false; false].
Proof.
  apply (docs_inhabited (fun s => s) (mkCfg false false) [] (fun _ _ => true) [] [] eq_refl eq_refl 0 2 0 0 ex_be_obj [82]%N ex_be_docs _ ltac:(discriminate) ex_be_sobj eq_refl);
    [eexists; eexists; vm_compute; reflexivity|vm_compute; reflexivity].
Qed.
