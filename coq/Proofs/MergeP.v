(* C11, allOf: the merge of branches (Model/Merge.v, the transcription of mergo.Merge on the modelled keywords, deep merge of
   shared properties and item schemas included) is the conjunction of the branches under the reference semantics, on EVERY
   document, as long as the branches are compatible: where two branches describe the same position (the same property at any
   depth, the item schema) they do not both set the same scalar keyword - the merge keeps the first one, which is weaker than
   the conjunction (recorded finding C11-first-wins-scalar), they do not both list an enum (lists are appended: union instead of
   intersection, finding C11-allof-enum-union), and their type lists agree. *)
From GJS Require Import Base Bounds Schema Merge Valid ValidP.

Section MergeP.
Variable fmt_ok : fmtk -> str -> bool.
Variable defs : list (str * schema).
Notation valid := (Valid.valid fmt_ok defs).

(* a branch after reference resolution: no composite, enum or additionalProperties keyword of its own *)
Definition plain (s : schema) : bool :=
  match c_ref (s_con s), c_enum (s_con s), s_addl s, s_addl_false s, s_all_of s, s_any_of s with
  | None, None, None, false, [], [] => true
  | _, _, _, _, _, _ => false
  end.
Definition obj_or_untyped (s : schema) : bool :=
  match c_types (s_con s) with [] | [SObject] => true | _ => false end.
Definition obj_typed (s : schema) : bool :=
  match c_types (s_con s) with [SObject] => true | _ => false end.

Lemma plain_inv s : plain s = true ->
  c_ref (s_con s) = None /\ c_enum (s_con s) = None /\ s_addl s = None /\ s_addl_false s = false /\ s_all_of s = [] /\ s_any_of s = [].
Proof.
  unfold plain. destruct (c_ref (s_con s)); [discriminate|]. destruct (c_enum (s_con s)); [discriminate|].
  destruct (s_addl s); [discriminate|]. destruct (s_addl_false s); [discriminate|].
  destruct (s_all_of s); [|discriminate]. destruct (s_any_of s); [|discriminate]. repeat split.
Qed.

(* the reference semantics of a plain node, split into its own keywords and the positions below it (valid_plain) *)
Definition own_keywords (c : scon) (j : json) : bool :=
  type_ok (c_types c) j &&
  match j with
  | JObj kv => forallb (fun k => match lookup k kv with Some _ => true | None => false end) (c_required c)
  | JArr l => len_ok (c_min_items c) (c_max_items c) (length l)
  | JStr x =>
      len_ok (c_min_len c) (c_max_len c) (length x) &&
      match c_pattern c with Some p => pat_match p x | None => true end &&
      match c_format c with Some k => fmt_ok k x | None => true end
  | JNum n => spec_numeric (c_mult c) (c_bounds c) (nq n)
  | _ => true
  end.

Definition at_pos (f : nat) (o : option schema) (v : json) : bool :=
  match o with Some p => valid f p v | None => true end.

Definition below (f : nat) (s : schema) (j : json) : bool :=
  match j with
  | JObj kv => forallb (fun p => at_pos f (lookup (fst p) (s_props s)) (snd p)) kv
  | JArr l => forallb (at_pos f (s_items s)) l
  | _ => true
  end.

Lemma valid_plain f s j : plain s = true -> valid (S f) s j = own_keywords (s_con s) j && below f s j.
Proof.
  intros Hp. destruct (plain_inv s Hp) as (Hr & He & Ha & Haf & Hall & Hany).
  rewrite (valid_node fmt_ok defs f s j Hr), He, Hall, Hany. cbn [forallb]. rewrite !andb_true_r.
  unfold own_keywords, below, at_pos, keywords. rewrite Ha, Haf. destruct j; rewrite ?andb_true_r, ?andb_assoc; try reflexivity.
  (* only arrays remain: an absent item schema asks nothing of the elements *)
  destruct (s_items s); [reflexivity|]. rewrite forallb_true. reflexivity.
Qed.

Definition tys_eqb (a b : list sty) : bool :=
  Nat.eqb (length a) (length b) && forallb (fun p => sty_eqb (fst p) (snd p)) (combine a b).
Lemma sty_eqb_eq a b : sty_eqb a b = true -> a = b.
Proof. destruct a, b; cbn; congruence. Qed.
Lemma tys_eqb_eq : forall a b, tys_eqb a b = true -> a = b.
Proof.
  induction a as [|x r IH]; intros [|y s] H; try reflexivity; try discriminate.
  unfold tys_eqb in H. cbn in H. apply andb_true_iff in H. destruct H as [Hl H]. apply andb_true_iff in H. destruct H as [Hx Hr].
  apply sty_eqb_eq in Hx. subst y. f_equal. apply IH. unfold tys_eqb. rewrite Hl, Hr. reflexivity.
Qed.

Definition one_nat (a b : nat) : bool := Nat.eqb a 0 || Nat.eqb b 0.
Definition one_opt {A} (a b : option A) : bool := match a, b with Some _, Some _ => false | _, _ => true end.
Definition lower_free (b : bounds) : bool := match b_min b, b_exmin b with None, None => true | _, _ => false end.
Definition upper_free (b : bounds) : bool := match b_max b, b_exmax b with None, None => true | _, _ => false end.
Definition types_compat (a b : list sty) : bool := match a, b with [], _ | _, [] => true | x, y => tys_eqb x y end.

Definition scalars_compat (a b : scon) : bool :=
  types_compat (c_types a) (c_types b) &&
  one_nat (c_min_items a) (c_min_items b) && one_nat (c_max_items a) (c_max_items b) &&
  one_nat (c_min_len a) (c_min_len b) && one_nat (c_max_len a) (c_max_len b) &&
  one_opt (c_pattern a) (c_pattern b) && one_opt (c_mult a) (c_mult b) && one_opt (c_format a) (c_format b) &&
  (lower_free (c_bounds a) || lower_free (c_bounds b)) && (upper_free (c_bounds a) || upper_free (c_bounds b)).

(* [compat 0 = false] as [merge2 0 = None]: the two recursions spend fuel alike, so (by the same induction, not needed below)
   a pair compatible at fuel g is one [merge2 g] has the fuel to merge *)
Fixpoint compat (g : nat) (d s : schema) {struct g} : bool :=
  match g with
  | O => false
  | S g' =>
      plain d && plain s && scalars_compat (s_con d) (s_con s) &&
      forallb (fun kv : str * schema => match lookup (fst kv) (s_props s) with Some sp => compat g' (snd kv) sp | None => true end) (s_props d) &&
      match s_items d, s_items s with Some x, Some y => compat g' x y | _, _ => true end
  end.

(* [merge_pos] is [merge2]'s local [sub] and [merge_prop] the function it maps over the properties of the first schema
   (Model/Merge.v), named so that [merge2_plain] can [fold] them; [compat_pos] is what [compat] asks at the same position *)
Definition merge_pos (g : nat) (a b : option schema) : option (option schema) :=
  match a, b with
  | Some x, Some y => match merge2 g x y with Some m => Some (Some m) | None => None end
  | _, _ => Some (first_opt a b)
  end.
Definition compat_pos (g : nat) (a b : option schema) : bool :=
  match a, b with Some x, Some y => compat g x y | _, _ => true end.
Definition merge_prop (g : nat) (sp : list (str * schema)) (kv : str * schema) : option (str * schema) :=
  match lookup (fst kv) sp with
  | Some x => match merge2 g (snd kv) x with Some m => Some (fst kv, m) | None => None end
  | None => Some kv
  end.

Lemma compat_S g d s :
  compat (S g) d s =
  plain d && plain s && scalars_compat (s_con d) (s_con s) &&
  forallb (fun kv : str * schema => compat_pos g (Some (snd kv)) (lookup (fst kv) (s_props s))) (s_props d) &&
  compat_pos g (s_items d) (s_items s).
Proof. reflexivity. Qed.

Lemma compat_S_inv g d s : compat (S g) d s = true ->
  plain d = true /\ plain s = true /\ scalars_compat (s_con d) (s_con s) = true /\
  forallb (fun kv : str * schema => compat_pos g (Some (snd kv)) (lookup (fst kv) (s_props s))) (s_props d) = true /\
  compat_pos g (s_items d) (s_items s) = true.
Proof. rewrite compat_S, !andb_true_iff. tauto. Qed.

Lemma merge2_plain g d s m : plain d = true -> plain s = true -> merge2 (S g) d s = Some m ->
  plain m = true /\
  exists dprops items,
    omapo (merge_prop g (s_props s)) (s_props d) = Some dprops /\
    merge_pos g (s_items d) (s_items s) = Some items /\
    m = Sch (merge_con (s_con d) (s_con s))
            (dprops ++ filter (fun kv => negb (mem (fst kv) (map fst (s_props d)))) (s_props s)) None false items [] [].
Proof.
  intros Pd Ps Hm. destruct (plain_inv d Pd) as (Rd & Ed & Ad & Afd & Alld & Anyd). destruct (plain_inv s Ps) as (Rs & Es & As & Afs & Alls & Anys).
  cbn [merge2] in Hm. fold (merge_prop g (s_props s)) in Hm. fold (merge_pos g (s_items d) (s_items s)) in Hm.
  rewrite Ad, As, Afd, Afs, Alld, Alls, Anyd, Anys in Hm.
  destruct (omapo _ (s_props d)) as [dprops|]; [|discriminate]. destruct (merge_pos g _ _) as [items|]; [|discriminate].
  inversion Hm. split.
  - unfold plain. cbn [s_con s_addl s_addl_false s_all_of s_any_of merge_con c_ref c_enum]. rewrite Rd, Rs, Ed, Es. reflexivity.
  - exists dprops, items. repeat split.
Qed.

Lemma type_ok_merge a b j : types_compat a b = true ->
  type_ok (match a with [] => b | _ => a end) j = type_ok a j && type_ok b j.
Proof.
  unfold types_compat. destruct a as [|x r]; [reflexivity|]. destruct b as [|y s]; [intros _; rewrite andb_true_r; reflexivity|].
  intros H. apply tys_eqb_eq in H. rewrite <- H. destruct (type_ok (x :: r) j); reflexivity.
Qed.

Lemma first_nat_merge (P : nat -> bool) a b : one_nat a b = true ->
  Nat.eqb (first_nat a b) 0 || P (first_nat a b) = (Nat.eqb a 0 || P a) && (Nat.eqb b 0 || P b).
Proof.
  unfold one_nat, first_nat. destruct (Nat.eqb a 0) eqn:Ea; cbn [orb]; [reflexivity|].
  intros Eb. rewrite Ea, Eb. symmetry. apply andb_true_r.
Qed.

Lemma len_ok_merge a1 b1 a2 b2 n : one_nat a1 b1 = true -> one_nat a2 b2 = true ->
  len_ok (first_nat a1 b1) (first_nat a2 b2) n = len_ok a1 a2 n && len_ok b1 b2 n.
Proof.
  intros H1 H2. unfold len_ok.
  rewrite (first_nat_merge (fun m => Nat.leb m n)), (first_nat_merge (Nat.leb n)) by assumption. apply andb_swap4.
Qed.

Lemma opt_merge {A} (a b : option A) (P : A -> bool) : one_opt a b = true ->
  match first_opt a b with Some x => P x | None => true end =
  match a with Some x => P x | None => true end && match b with Some x => P x | None => true end.
Proof. destruct a, b; cbn; intros H; try discriminate; rewrite ?andb_true_r; reflexivity. Qed.

Lemma spec_multiple_merge a b x : one_opt a b = true ->
  spec_multiple (first_qptr a b) x = spec_multiple a x && spec_multiple b x.
Proof. destruct a, b; cbn; intros H; try discriminate; rewrite ?andb_true_r; reflexivity. Qed.

Lemma side_merge (side : option Q -> option exb -> Q -> bool) ma ea mb eb x :
  side None None x = true -> ma = None /\ ea = None \/ mb = None /\ eb = None ->
  side (first_qptr ma mb) (first_opt ea eb) x = side ma ea x && side mb eb x.
Proof.
  intros H0 [[-> ->]|[-> ->]]; cbn [first_qptr first_opt]; rewrite H0; [reflexivity|].
  rewrite andb_true_r. destruct ma, ea; reflexivity.
Qed.

Lemma lower_free_inv b : lower_free b = true -> b_min b = None /\ b_exmin b = None.
Proof. unfold lower_free. destruct (b_min b), (b_exmin b); try discriminate. split; reflexivity. Qed.
Lemma upper_free_inv b : upper_free b = true -> b_max b = None /\ b_exmax b = None.
Proof. unfold upper_free. destruct (b_max b), (b_exmax b); try discriminate. split; reflexivity. Qed.

Lemma spec_bounds_merge a b x : lower_free a || lower_free b = true -> upper_free a || upper_free b = true ->
  spec_bounds (merge_bounds a b) x = spec_bounds a x && spec_bounds b x.
Proof.
  intros Hl Hu. apply orb_true_iff in Hl, Hu. unfold spec_bounds, merge_bounds. cbn [b_min b_max b_exmin b_exmax].
  rewrite (side_merge spec_lower), (side_merge spec_upper); try reflexivity.
  - apply andb_swap4.
  - destruct Hu as [H|H]; [left|right]; exact (upper_free_inv _ H).
  - destruct Hl as [H|H]; [left|right]; exact (lower_free_inv _ H).
Qed.

Lemma scalars_compat_inv a b : scalars_compat a b = true ->
  types_compat (c_types a) (c_types b) = true /\
  one_nat (c_min_items a) (c_min_items b) = true /\ one_nat (c_max_items a) (c_max_items b) = true /\
  one_nat (c_min_len a) (c_min_len b) = true /\ one_nat (c_max_len a) (c_max_len b) = true /\
  one_opt (c_pattern a) (c_pattern b) = true /\ one_opt (c_mult a) (c_mult b) = true /\ one_opt (c_format a) (c_format b) = true /\
  lower_free (c_bounds a) || lower_free (c_bounds b) = true /\ upper_free (c_bounds a) || upper_free (c_bounds b) = true.
Proof. unfold scalars_compat. rewrite !andb_true_iff. tauto. Qed.

Lemma own_keywords_merge a b j : scalars_compat a b = true -> own_keywords (merge_con a b) j = own_keywords a j && own_keywords b j.
Proof.
  intros H. destruct (scalars_compat_inv a b H) as (Cty & Cmini & Cmaxi & Cminl & Cmaxl & Cpat & Cmult & Cfmt & Clo & Cup).
  unfold own_keywords. cbn [merge_con c_types c_required c_min_items c_max_items c_min_len c_max_len c_pattern c_format c_mult c_bounds].
  rewrite (type_ok_merge _ _ j Cty), andb_swap4. f_equal.
  destruct j as [| | n | x | l | kv]; try reflexivity.
  - unfold spec_numeric. rewrite (spec_multiple_merge _ _ _ Cmult), (spec_bounds_merge _ _ _ Clo Cup). apply andb_swap4.
  - rewrite (len_ok_merge _ _ _ _ _ Cminl Cmaxl), (opt_merge _ _ (fun p => pat_match p x) Cpat), (opt_merge _ _ (fun k => fmt_ok k x) Cfmt).
    rewrite (andb_swap4 (len_ok _ _ _) (len_ok _ _ _)). apply andb_swap4.
  - exact (len_ok_merge _ _ _ _ _ Cmini Cmaxi).
  - apply forallb_app.
Qed.

Lemma lookup_filter_in {A} k (keys : list str) (l : list (str * A)) : mem k keys = true ->
  lookup k (filter (fun kv => negb (mem (fst kv) keys)) l) = None.
Proof. intros Hk. rewrite lookup_filter_keys, Hk. reflexivity. Qed.

Lemma merged_props_lookup g sp k : forall dp dprops, omapo (merge_prop g sp) dp = Some dprops ->
  merge_pos g (lookup k dp) (lookup k sp) =
  Some (lookup k (dprops ++ filter (fun kv => negb (mem (fst kv) (map fst dp))) sp)).
Proof.
  induction dp as [|[k' x] r IH]; intros dprops H; cbn [omapo] in H.
  - inversion H. cbn [app]. rewrite lookup_filter_keys. reflexivity.
  - destruct (merge_prop g sp (k', x)) as [[k1 m]|] eqn:EF; [|discriminate]. destruct (omapo _ r) as [ys|]; [|discriminate]. inversion H. clear H.
    assert (Hd : k1 = k' /\ merge_pos g (Some x) (lookup k' sp) = Some (Some m)).
    { unfold merge_prop in EF. cbn [fst snd] in EF. unfold merge_pos.
      destruct (lookup k' sp) as [y|]; [destruct (merge2 g x y); [|discriminate]|]; inversion EF; split; reflexivity. }
    destruct Hd as [-> Hd]. cbn [map fst app lookup]. destruct (str_eqb k k') eqn:E.
    + apply str_eqb_eq in E. subst k'. exact Hd.
    + rewrite (IH ys eq_refl), !lookup_app, !lookup_filter_keys. unfold mem. cbn [existsb]. rewrite E. reflexivity.
Qed.

(* C11_allOf_merge_step: one merge of two compatible descriptions of a position is their conjunction, at any nesting depth *)
Theorem merge2_conj : forall g f d s m j,
  compat g d s = true -> merge2 g d s = Some m ->
  plain m = true /\ valid f m j = valid f d j && valid f s j.
Proof.
  induction g as [|g IH]; intros f d s m j Hc Hm; [discriminate|].
  destruct (compat_S_inv g d s Hc) as (Pd & Ps & Hsc & Hprops & Hitems).
  destruct (merge2_plain g d s m Pd Ps Hm) as (Pm & dprops & items & Eprops & Eitems & Em).
  split; [exact Pm|]. destruct f as [|f]; [reflexivity|].
  assert (Pos : forall a b o v, compat_pos g a b = true -> merge_pos g a b = Some o -> at_pos f o v = at_pos f a v && at_pos f b v).
  { intros [x|] [y|] o v Hcp Hmp; cbn [merge_pos first_opt] in Hmp.
    - destruct (merge2 g x y) as [m0|] eqn:E; [|discriminate]. inversion Hmp. exact (proj2 (IH f x y m0 v Hcp E)).
    - inversion Hmp. symmetry. apply andb_true_r.
    - inversion Hmp. reflexivity.
    - inversion Hmp. reflexivity. }
  rewrite !valid_plain by assumption. subst m. cbn [s_con]. rewrite (own_keywords_merge _ _ j Hsc), andb_swap4. f_equal.
  destruct j as [| | | | l | kv]; try reflexivity; cbn [below s_items s_props]; apply forallb_and.
  - intros v _. exact (Pos _ _ _ v Hitems Eitems).
  - intros [k v] _. cbn [fst snd]. apply Pos; [|exact (merged_props_lookup g _ k _ _ Eprops)].
    destruct (lookup k (s_props d)) as [x|] eqn:E; [|reflexivity].
    rewrite forallb_forall in Hprops. exact (Hprops (k, x) (lookup_In _ _ _ E)).
Qed.

Fixpoint compat_all (d : schema) (bs : list schema) : bool :=
  match bs with
  | [] => true
  | b :: r => compat merge_fuel d b && match merge2 merge_fuel d b with Some d' => compat_all d' r | None => false end
  end.

(* stated for [rewrite]: unfolding these by [cbn] makes [Qed] evaluate [compat 12] and [merge2 12].  The lemmas stated at
   [S g] ([compat_S], [merge2_plain]) apply to [merge_fuel] by conversion, but [rewrite] finds them only after [unfold merge_fuel] *)
Lemma compat_all_cons d b r :
  compat_all d (b :: r) =
  compat merge_fuel d b && match merge2 merge_fuel d b with Some d' => compat_all d' r | None => false end.
Proof. reflexivity. Qed.
Lemma merge_into_cons d b r :
  merge_into d (b :: r) = match merge2 merge_fuel d b with Some d' => merge_into d' r | None => None end.
Proof. reflexivity. Qed.

Lemma merge_into_conj f j : forall bs d m, plain d = true -> compat_all d bs = true -> merge_into d bs = Some m ->
  plain m = true /\ valid f m j = valid f d j && forallb (fun b => valid f b j) bs.
Proof.
  induction bs as [|b r IH]; intros d m Pd Hc Hm.
  - inversion Hm; subst. cbn [forallb]. rewrite andb_true_r. split; [exact Pd|reflexivity].
  - rewrite compat_all_cons in Hc. apply andb_true_iff in Hc. destruct Hc as [Hc1 Hc2].
    rewrite merge_into_cons in Hm. destruct (merge2 merge_fuel d b) as [d'|] eqn:E2; [|discriminate].
    destruct (merge2_conj _ f d b d' j Hc1 E2) as [Pd' Hv].
    destruct (IH d' m Pd' Hc2 Hm) as [Pm Hvm]. split; [exact Pm|].
    rewrite Hvm, Hv. cbn [forallb]. rewrite andb_assoc. reflexivity.
Qed.

Lemma empty_plain : plain empty_schema = true.
Proof. reflexivity. Qed.

Lemma valid_empty f j : valid (S f) empty_schema j = true.
Proof.
  rewrite (valid_plain f empty_schema j empty_plain). destruct j; try reflexivity; apply forallb_true.
Qed.

(* C11_allOf_merge: allOf of compatible branches, not all of primitive type: the merged schema is their conjunction, on every document *)
Theorem merge_is_conjunction : forall bs m f j,
  forallb prim_or_untyped bs = false -> compat_all empty_schema bs = true ->
  merge_types bs = Some m ->
  valid (S f) m j = forallb (fun b => valid (S f) b j) bs.
Proof.
  intros bs m f j Hnp Hc Hm. unfold merge_types in Hm. destruct bs as [|b r]; [discriminate|]. rewrite Hnp in Hm.
  destruct (merge_into_conj (S f) j (b :: r) empty_schema m empty_plain Hc Hm) as [_ Hv]. rewrite Hv, valid_empty. reflexivity.
Qed.

End MergeP.

(* all-primitive (or untyped) branch lists are not merged at all (isPrimitiveTypeList): the result accepts everything *)
Definition prim_branch : schema :=
  Sch (mkC [SString] None None [] 0 0 0 1 None None (mkBounds None None None None) None None) [] None false None [] [].
Lemma merge_primitive_refuted :
  exists m, merge_types [prim_branch] = Some m /\
    Valid.valid (fun _ _ => true) [] 3 m (JStr [97; 98; 99]%N) = true /\
    forallb (fun b => Valid.valid (fun _ _ => true) [] 3 b (JStr [97; 98; 99]%N)) [prim_branch] = false.
Proof. eexists. split; [reflexivity|]. split; reflexivity. Qed.

(* the compatibility hypothesis is needed: two branches that both bound the length of the same property (first one wins) *)
Definition len_branch (mn : nat) : schema :=
  Sch (mkC [SObject] None None [] 0 0 0 0 None None (mkBounds None None None None) None None)
      [([97]%N, Sch (mkC [SString] None None [] 0 0 mn 0 None None (mkBounds None None None None) None None) [] None false None [] [])] None false None [] [].
Lemma merge_first_wins_refuted :
  exists m, merge_types [len_branch 1; len_branch 3] = Some m /\
    compat_all empty_schema [len_branch 1; len_branch 3] = false /\
    Valid.valid (fun _ _ => true) [] 4 m (JObj [([97]%N, JStr [120; 121]%N)]) = true /\
    forallb (fun b => Valid.valid (fun _ _ => true) [] 4 b (JObj [([97]%N, JStr [120; 121]%N)])) [len_branch 1; len_branch 3] = false.
Proof. eexists. split; [reflexivity|]. repeat split; reflexivity. Qed.

(* non-vacuity: two object branches with a key of their own each, and a shared key that one types and the other bounds *)
Definition ob (k : str) (t : sty) : schema :=
  Sch (mkC [SObject] None None [k] 0 0 0 0 None None (mkBounds None None None None) None None)
      [(k, Sch (mkC [t] None None [] 0 0 0 0 None None (mkBounds None None None None) None None) [] None false None [] [])] None false None [] [].
Definition ob_shared1 : schema :=
  Sch (mkC [SObject] None None [[97]%N] 0 0 0 0 None None (mkBounds None None None None) None None)
      [([97]%N, Sch (mkC [SString] None None [] 0 0 0 0 None None (mkBounds None None None None) None None) [] None false None [] []);
       ([115]%N, Sch (mkC [SString] None None [] 0 0 0 4 None None (mkBounds None None None None) None None) [] None false None [] [])] None false None [] [].
Definition ob_shared2 : schema :=
  Sch (mkC [SObject] None None [[98]%N] 0 0 0 0 None None (mkBounds None None None None) None None)
      [([98]%N, Sch (mkC [SInteger] None None [] 0 0 0 0 None None (mkBounds None None None None) None None) [] None false None [] []);
       ([115]%N, Sch (mkC [] None None [] 0 0 2 0 None None (mkBounds None None None None) None None) [] None false None [] [])] None false None [] [].
Example merge_inhabited :
  exists m, merge_types [ob [97]%N SString; ob [98]%N SInteger] = Some m /\
    forallb prim_or_untyped [ob [97]%N SString; ob [98]%N SInteger] = false /\ compat_all empty_schema [ob [97]%N SString; ob [98]%N SInteger] = true /\
    map fst (s_props m) = [[97]%N; [98]%N].
Proof. eexists. split; [reflexivity|]. repeat split; reflexivity. Qed.
Example merge_shared_inhabited :
  exists m, merge_types [ob_shared1; ob_shared2] = Some m /\
    forallb prim_or_untyped [ob_shared1; ob_shared2] = false /\ compat_all empty_schema [ob_shared1; ob_shared2] = true /\
    map fst (s_props m) = [[97]%N; [115]%N; [98]%N] /\
    option_map (fun p => (c_min_len (s_con p), c_max_len (s_con p))) (lookup [115]%N (s_props m)) = Some (2, 4).
Proof. eexists. split; [reflexivity|]. repeat split; reflexivity. Qed.
