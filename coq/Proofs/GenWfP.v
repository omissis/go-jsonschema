(* C19: the types [gen] produces are well formed ([wf_ty], the hypothesis of C19_total) up to a stated residue.
   The strict form [wf_s v_ok] of [wf_ty] splits into [wf_s v_resid], the residue (distinct non-empty field names, default
   literals that fit their field, a raw map for the additional-properties block, references that resolve), and [F], which
   holds by construction: every string / numeric / array / null-type validator names a field of the shape it dereferences.
   [gen_post]: every type [gen] returns has [F]. *)
From Coq Require Import Btauto.
From GJS Require Import Base Bounds IntSize Schema GoType Ident Gen Exec ExecP WfP GenP NamesP MethodP.

Section GenWf.
Variable env : list (str * gty).
Notation v_ok := (WfP.v_ok env).

Fixpoint strip (d : nat) (t : gty) : option gty :=
  match d with
  | O => Some t
  | S d' => match t with TSlice _ e => strip d' e | _ => None end
  end.

Lemma strip_step d : forall T i e, strip d T = Some (TSlice i e) -> strip (S d) T = Some e.
Proof.
  induction d as [|d IH]; intros T i e H; [injection H as ->; reflexivity|].
  cbn [strip] in *. destruct T; try discriminate. exact (IH _ _ _ H).
Qed.

Lemma strip_nest_slice d : forall T t, strip d T = Some t -> nest_slice d T = true.
Proof.
  induction d as [|d IH]; intros T t H; [reflexivity|]. cbn [strip nest_slice] in *. destruct T; try discriminate. exact (IH _ _ H).
Qed.

Lemma strip_nest_null d : forall T, strip d T = Some TNullT -> nest_null d T = true.
Proof.
  induction d as [|d IH]; intros T H; [injection H as ->; reflexivity|].
  cbn [strip nest_null] in *. destruct T; try discriminate. exact (IH _ H).
Qed.

(* [t] is what is left of the field's type [T] under [d] slices *)
Lemma array_validators_ok ft fn jn mn mx T : ft fn = Some T ->
  forall t d, strip d T = Some t ->
  forallb (v_ok ft) (array_validators fn jn mn mx (S d) t) = true.
Proof.
  intros Hft t. induction t as [| | | | | | |?|inl e IH|?|? ? ?|? ? ?|? ? ? ?|?]; intros d Hs; try reflexivity.
  destruct inl; [|reflexivity].
  assert (He : strip (S d) T = Some e) by exact (strip_step _ _ _ _ Hs).
  destruct (array_validators_cases fn jn mn mx (S d) e) as [[-> ->] | ->].
  - cbn [forallb v_ok]. rewrite Hft, (strip_nest_null _ _ He). reflexivity.
  - rewrite forallb_app, (IH (S d) He), andb_true_r. destruct (negb (mn =? 0) || negb (mx =? 0)); [|reflexivity].
    cbn [forallb v_ok]. rewrite Hft, (strip_nest_slice _ _ _ He). reflexivity.
Qed.

Definition scalar_like (t : gty) : bool := match t with TSlice _ _ | TPtr _ | TNullT => false | _ => true end.
(* the generator wraps only scalars and named types in a pointer *)
Definition top_ok (t : gty) : bool := match t with TPtr u => scalar_like u | _ => true end.

Lemma field_validators_ok ft fn jn c b t :
  ft fn = Some t -> top_ok t = true -> forallb (v_ok ft) (field_validators fn jn c b t false) = true.
Proof.
  intros Hft Ht.
  assert (Hone : forall (cnd : bool) v, v_ok ft v = true -> forallb (v_ok ft) (if cnd then [v] else []) = true)
    by (intros [] v Hv; cbn; rewrite ?Hv; reflexivity).
  destruct t as [| | |k| | | |u|inl e| | | | |]; cbn [field_validators]; try reflexivity.
  - (* TString *) apply Hone. cbn [v_ok]. rewrite Hft. reflexivity.
  - (* TFloat *) apply Hone. cbn [v_ok]. rewrite Hft. reflexivity.
  - (* TInt *) apply Hone. cbn [v_ok]. rewrite Hft. reflexivity.
  - (* TNullT *) cbn [forallb v_ok]. rewrite Hft. reflexivity.
  - (* TPtr: by [top_ok] what is under the pointer is no pointer, slice or null type; it gets the nillable string or numeric validator *)
    destruct u; try discriminate; cbn [field_validators]; try reflexivity; apply Hone; cbn [v_ok]; rewrite Hft; reflexivity.
  - (* TSlice *) destruct inl; [exact (array_validators_ok ft fn jn _ _ _ Hft _ 0 eq_refl)|reflexivity].
Qed.

Definition is_anyof (v : validator) : bool := match v with VAnyOf _ => true | _ => false end.

Lemma own_no_anyof fn ws : Forall (own fn) ws -> existsb is_anyof ws = false.
Proof.
  intros H. apply existsb_false. intros w Hw. rewrite Forall_forall in H. destruct (H w Hw) as [Hc _].
  destruct w; try reflexivity. discriminate Hc.
Qed.

Lemma field_validators_no_anyof fn jn c b t nl : existsb is_anyof (field_validators fn jn c b t nl) = false.
Proof. exact (own_no_anyof fn _ (field_validators_own fn jn c b t nl)). Qed.
End GenWf.

Section GenTop.
Variable cf : cfg.

Lemma wrap_ptr_top ptr t : scalar_like t = true -> top_ok (wrap_ptr ptr t) = true.
Proof. destruct ptr, t; cbn; try reflexivity; try discriminate. Qed.

Lemma declare_top scope sub c t b r b' : top_ok t = true -> declare cf scope sub c (t, b) = Done (r, b') -> top_ok r = true.
Proof.
  unfold declare. intros Ht. destruct (is_named_ty t); [intros [= <- <-]; exact Ht|].
  destruct t as [| | | | | | | | | |n fs plan| | |]; try (intros [= <- <-]; reflexivity). destruct n, plan; intros [= <- <-]; reflexivity.
Qed.
End GenTop.

(* strict well-formedness: the validators of a struct are checked whatever its name *)
Section Strict.
Variable env : list (str * gty).

Definition v_four (ft : str -> option gty) (v : validator) : bool :=
  match v with VRequired _ | VAnyOf _ | VDefault _ _ _ _ => true | _ => WfP.v_ok env ft v end.
(* what the generator does not guarantee by construction: default literals that fit their field *)
Definition v_resid (ft : str -> option gty) (v : validator) : bool :=
  match v with VDefault _ _ _ _ | VAnyOf _ => WfP.v_ok env ft v | _ => true end.

Lemma v_ok_split ft v : WfP.v_ok env ft v = v_resid ft v && v_four ft v.
Proof. destruct v; cbn [v_resid v_four]; rewrite ?andb_true_r, ?andb_true_l; reflexivity. Qed.

Lemma forallb_split ft vs : forallb (WfP.v_ok env ft) vs = forallb (v_resid ft) vs && forallb (v_four ft) vs.
Proof. apply forallb_and. intros v _. apply v_ok_split. Qed.

Fixpoint wf_s (chk : (str -> option gty) -> validator -> bool) (t : gty) : bool :=
  match t with
  | TPtr u | TSlice _ u | TMap u => wf_s chk u
  | TStruct _ fs plan =>
      (fix go (fs : list field) : bool := match fs with [] => true | mkField _ _ _ ty _ _ :: r => wf_s chk ty && go r end) fs &&
      names_ok fs &&
      match plan with
      | Some vs =>
          forallb (chk (ft_struct fs)) vs && addl_ok fs vs &&
          (fix gov (vs : list validator) : bool :=
             match vs with
             | [] => true
             | VAnyOf bs :: r => (fix gob (bs : list gty) : bool := match bs with [] => true | b :: r' => wf_s chk b && gob r' end) bs && gov r
             | _ :: r => gov r
             end) vs
      | None => true
      end
  | TNamed _ u plan => wf_s chk u && match plan with Some vs => forallb (chk (ft_named u)) vs && negb (existsb is_anyof vs) | None => true end
  | TEnum _ c _ _ => wf_s chk c
  | TRef d => match lookup d env with Some _ => true | None => false end
  | _ => true
  end.

Definition list_s chk : list gty -> bool :=
  fix gob (bs : list gty) : bool := match bs with [] => true | b :: r' => wf_s chk b && gob r' end.
Definition branches_s chk : list validator -> bool :=
  fix gov (vs : list validator) : bool :=
    match vs with
    | [] => true
    | VAnyOf bs :: r => list_s chk bs && gov r
    | _ :: r => gov r
    end.

Lemma wf_s_struct chk n fs plan :
  wf_s chk (TStruct n fs plan) = fields_all (wf_s chk) fs && names_ok fs &&
    match plan with Some vs => forallb (chk (ft_struct fs)) vs && addl_ok fs vs && branches_all (wf_s chk) vs | None => true end.
Proof. reflexivity. Qed.

Lemma branches_all_none p vs : existsb is_anyof vs = false -> branches_all p vs = true.
Proof.
  induction vs as [|v r IH]; [reflexivity|]. cbn [existsb]. intros H. apply orb_false_iff in H. destruct H as [H1 H2].
  destruct v; cbn [branches_all]; try exact (IH H2). discriminate.
Qed.

Lemma branches_s_none chk vs : existsb is_anyof vs = false -> branches_s chk vs = true.
Proof. exact (branches_all_none (wf_s chk) vs). Qed.

Lemma wf_strict_wf : forall t, wf_s (WfP.v_ok env) t = true -> wf_ty env t = true.
Proof.
  induction t as [t Ht|t IHt|i t IHt|t IHt|n fs plan IHf IHb|n t plan IHt|n c w vs IHt] using gty_ind'; try exact IHt.
  - destruct t; try contradiction; intros H; exact H.
  - rewrite wf_s_struct, wf_ty_struct. intros H. apply andb_true_iff in H. destruct H as [H Hp]. apply andb_true_iff in H.
    destruct H as [Hf Hn]. rewrite (fields_all_impl _ _ fs IHf Hf), Hn. destruct n; [reflexivity|]. destruct plan as [vs|]; [|reflexivity].
    apply andb_true_iff in Hp. destruct Hp as [-> Hb]. exact (branches_all_impl _ _ vs (IHb vs eq_refl) Hb).
  - cbn [wf_s wf_ty]. intros H. apply andb_true_iff in H. destruct H as [H1 H2]. rewrite (IHt H1). exact H2.
Qed.
End Strict.

(* the part of well-formedness that holds by construction.  The validators are asked to fit only when the field names are
   distinct: that is what lets the type of a field be found under its name ([ft_struct_self]), and it is part of the residue *)
Section ByConstruction.
Variable env : list (str * gty).

(* [F]: the validators that read a field Fit it *)
Fixpoint F (t : gty) : bool :=
  match t with
  | TPtr u | TSlice _ u | TMap u => F u
  | TStruct _ fs plan =>
      (fix go (fs : list field) : bool := match fs with [] => true | mkField _ _ _ ty _ _ :: r => F ty && go r end) fs &&
      match plan with
      | Some vs =>
          (negb (names_ok fs) || forallb (v_four env (ft_struct fs)) vs) &&
          (fix gov (vs : list validator) : bool :=
             match vs with
             | [] => true
             | VAnyOf bs :: r => (fix gob (bs : list gty) : bool := match bs with [] => true | b :: r' => F b && gob r' end) bs && gov r
             | _ :: r => gov r
             end) vs
      | None => true
      end
  | TNamed _ u plan => F u && match plan with Some vs => forallb (v_four env (ft_named u)) vs && negb (existsb is_anyof vs) | None => true end
  | TEnum _ c _ _ => F c
  | _ => true
  end.
Lemma F_struct n fs plan :
  F (TStruct n fs plan) = fields_all F fs &&
    match plan with Some vs => (negb (names_ok fs) || forallb (v_four env (ft_struct fs)) vs) && branches_all F vs | None => true end.
Proof. reflexivity. Qed.

(* [R]: the Residue; [W]: Well formed, strictly *)
Notation R := (wf_s env (v_resid env)).
Notation W := (wf_s env (WfP.v_ok env)).

Lemma W_split : forall t, W t = R t && F t.
Proof.
  induction t as [t Ht|t IHt|i t IHt|t IHt|n fs plan IHf IHb|n t plan IHt|n c w vs IHt] using gty_ind'; try exact IHt.
  - destruct t; try contradiction; try reflexivity. cbn. destruct (lookup def env); reflexivity.
  - rewrite !wf_s_struct, F_struct, (fields_all_and W R F fs IHf). destruct plan as [vs|]; [|btauto].
    rewrite forallb_split, (branches_all_and W R F vs (IHb vs eq_refl)). btauto.
  - cbn [wf_s F]. rewrite IHt. destruct plan as [vs|]; [rewrite forallb_split|]; btauto.
Qed.
End ByConstruction.


Section Main.
Variable idf : str -> str.
Variable cf : cfg.
Variable defs : list (str * schema).
Variable env : list (str * gty).
Notation gen := (Gen.gen idf cf defs).
Notation F := (F env).

(* what [gen] keeps of every type it returns.  [top_ok] is there because [field_validators] looks through a pointer at the type
   under it: its validators fit ([field_validators_ok]) only if that type is no pointer, slice or null type.  A pointer is made by
   [primitive] (a type list with null) or by [make_field] (an optional property), in both cases at the top of the type of a field *)
Definition good (t : gty) : Prop := top_ok t = true /\ F t = true.

Lemma four_of_ok ft vs : forallb (WfP.v_ok env ft) vs = true -> forallb (v_four env ft) vs = true.
Proof. rewrite forallb_split. intros H. apply andb_true_iff in H. tauto. Qed.

Lemma good_wrap ptr t : scalar_like t = true -> F t = true -> good (wrap_ptr ptr t).
Proof. intros Hs Hf. split; [exact (wrap_ptr_top ptr t Hs)|]. destruct ptr, t; try discriminate; exact Hf. Qed.

Lemma good_primitive t fmt ptr b : rpost (fun r => good (fst r)) (primitive cf t fmt ptr b).
Proof.
  unfold primitive. destruct t; try exact I.
  - (* SString: a string or a format type *) apply good_wrap; destruct fmt; reflexivity.
  - (* SInteger *) destruct (primitive_int _ b) as [k b2]. apply good_wrap; reflexivity.
  - (* SNumber *) apply good_wrap; reflexivity.
  - (* SBoolean *) apply good_wrap; reflexivity.
  - (* SNull: the null type, never behind a pointer *) split; reflexivity.
Qed.

Definition info_ok (i : finfo) : Prop :=
  F (f_ty (fst (fst i))) = true /\
  (forall ft, ft (f_name (fst (fst i))) = Some (f_ty (fst (fst i))) -> forallb (v_four env ft) (snd i) = true) /\
  existsb is_anyof (snd i) = false.

Lemma field_info_ok (f : field) req c b extra :
  good (f_ty f) -> (forall ft, forallb (v_four env ft) extra = true) -> existsb is_anyof extra = false ->
  info_ok (f, req, extra ++ field_validators (f_name f) (f_json f) c b (f_ty f) false).
Proof.
  intros [Ht Hf] He Hn. split; [exact Hf|]. cbn [fst snd]. split.
  - intros ft Hft. rewrite forallb_app, He. apply four_of_ok, field_validators_ok; assumption.
  - rewrite existsb_app, Hn. apply field_validators_no_anyof.
Qed.

Lemma make_field_ok c self fname k p ty bp : good ty -> info_ok (make_field defs c self fname k p ty bp).
Proof.
  intros Hg. destruct (c_default (s_con p)) as [dv|] eqn:E.
  - rewrite (make_field_default defs _ _ _ _ _ _ _ _ E).
    exact (field_info_ok (mkField fname k _ ty _ false) _ _ _ [VDefault fname k ty _] Hg (fun _ => eq_refl) eq_refl).
  - rewrite (make_field_no_default defs _ _ _ _ _ _ _ E). cbv zeta.
    refine (field_info_ok (mkField fname k _ _ _ false) _ _ _ [] _ (fun _ => eq_refl) eq_refl). cbn [f_ty].
    destruct (mem k (c_required c)); [exact Hg|]. destruct (nillable_ty _ ty) eqn:En; [exact Hg|].
    (* not nillable: not a pointer, so the pointer around it is a good top *)
    destruct Hg as [_ Hf]. split; [|exact Hf]. destruct ty; try reflexivity; discriminate.
Qed.

Lemma fields_F_infos infos : Forall info_ok infos -> fields_all F (map (fun i : finfo => fst (fst i)) infos) = true.
Proof.
  intros H. rewrite fields_all_forallb, forallb_map. apply forallb_forall. intros i Hi. rewrite Forall_forall in H. exact (proj1 (H i Hi)).
Qed.

Lemma infos_four infos fs : names_ok fs = true -> (forall i, In i infos -> In (fst (fst i)) fs) -> Forall info_ok infos ->
  forallb (v_four env (ft_struct fs)) (flat_map (fun i : finfo => snd i) infos) = true.
Proof.
  intros Hn Hin Hok. rewrite forallb_flat_map. apply forallb_forall. intros i Hi. rewrite Forall_forall in Hok.
  apply (proj1 (proj2 (Hok i Hi))), ft_struct_self; auto.
Qed.

Lemma reqs_four ft (infos : list finfo) :
  forallb (v_four env ft) (flat_map (fun i : finfo => if snd (fst i) then [VRequired (f_json (fst (fst i)))] else []) infos) = true.
Proof. destruct (required_checks infos) as [ks ->]. rewrite forallb_map. apply forallb_true. Qed.

Lemma infos_no_anyof infos : Forall info_ok infos -> existsb is_anyof (flat_map (fun i : finfo => snd i) infos) = false.
Proof. induction 1 as [|i r [_ [_ Hi]] _ IH]; [reflexivity|]. cbn [flat_map]. rewrite existsb_app, Hi, IH. reflexivity. Qed.

Lemma reqs_no_anyof (infos : list finfo) :
  existsb is_anyof (flat_map (fun i : finfo => if snd (fst i) then [VRequired (f_json (fst (fst i)))] else []) infos) = false.
Proof. destruct (required_checks infos) as [ks ->]. rewrite existsb_map. apply existsb_false. reflexivity. Qed.

Lemma struct_of_infos_good infos extra tail : Forall info_ok infos -> fields_all F extra = true ->
  (forall ft, forallb (v_four env ft) tail = true) -> existsb is_anyof tail = false ->
  good (TStruct [] (map (fun i : finfo => fst (fst i)) infos ++ extra)
          (Some (flat_map (fun i : finfo => if snd (fst i) then [VRequired (f_json (fst (fst i)))] else []) infos ++
                 flat_map (fun i : finfo => snd i) infos ++ tail))).
Proof.
  intros Hok He Ht Hn. split; [reflexivity|].
  rewrite F_struct, fields_all_forallb, forallb_app, <- !fields_all_forallb, (fields_F_infos infos Hok), He.
  rewrite branches_all_none by (rewrite !existsb_app, reqs_no_anyof, (infos_no_anyof infos Hok); exact Hn).
  destruct (names_ok _) eqn:En; [|reflexivity]. cbn [negb orb andb]. rewrite !forallb_app, reqs_four, Ht, !andb_true_r. cbn [andb].
  apply infos_four; [exact En| |exact Hok]. intros i Hi. apply in_or_app. left. exact (List.in_map _ _ _ Hi).
Qed.

Lemma build_struct_F s b0 infos : Forall info_ok infos -> rpost (fun r => good (fst r)) (build_struct s b0 infos).
Proof.
  intros Hok. unfold build_struct.
  pose proof (struct_of_infos_good infos [] [] Hok eq_refl (fun _ => eq_refl) eq_refl) as H0. rewrite !app_nil_r in H0.
  destruct (s_addl s) as [a|]; [destruct (s_addl_false s)|]; try exact H0.
  destruct (c_types (s_con a)) as [|t0 [|t1 r]]; try exact I; cbn [rpost fst].
  - rewrite <- (app_nil_r (flat_map (fun i : finfo => snd i) infos)). apply struct_of_infos_good; auto.
  - apply struct_of_infos_good; auto. destruct t0; reflexivity.
Qed.

Lemma good_iface : good TIface. Proof. split; reflexivity. Qed.
Lemma good_slice i u : good u -> good (TSlice i u). Proof. intros [_ H]. split; [reflexivity|exact H]. Qed.
Lemma good_map u : good u -> good (TMap u). Proof. intros [_ H]. split; [reflexivity|exact H]. Qed.

Lemma good_named scope t vs plan : F t = true -> forallb (v_four env (ft_named t)) vs = true -> existsb is_anyof vs = false ->
  plan = None \/ plan = Some vs -> good (TNamed scope t plan).
Proof.
  intros Hf H4 Hna Hp. split; [reflexivity|]. cbn [GenWfP.F]. rewrite Hf. destruct Hp as [->| ->]; [reflexivity|].
  rewrite H4, Hna. reflexivity.
Qed.

Lemma good_struct scope n fs plan plan' : F (TStruct n fs plan) = true ->
  plan' = None \/ plan' = Some (match plan with Some vs => vs | None => [] end) -> good (TStruct scope fs plan').
Proof.
  rewrite F_struct. intros Hf Hp. apply andb_true_iff in Hf. destruct Hf as [Hff Hv]. split; [reflexivity|]. rewrite F_struct, Hff.
  destruct Hp as [->| ->]; [reflexivity|]. destruct plan; [exact Hv|]. cbn [forallb]. rewrite orb_true_r. reflexivity.
Qed.

Lemma good_declare scope sub c t b : good t -> rpost (fun r => good (fst r)) (declare cf scope sub c (t, b)).
Proof.
  intros [Ht Hf]. unfold declare. destruct (is_named_ty t) eqn:En; [split; assumption|].
  (* the plan [declare] keeps is the one it is given, or none *)
  assert (Hom : forall (X : list validator) f,
            let om := if g_only_models cf then None else if f || sub || negb (length X =? 0) then Some X else None in
            om = None \/ om = Some X)
    by (intros X f; destruct (g_only_models cf); [|destruct (_ || _)]; auto).
  pose proof (fun plan => good_named scope t _ plan Hf (four_of_ok _ _ (field_validators_ok env (ft_named t) [] [] c b t eq_refl Ht))
                            (field_validators_no_anyof [] [] c b t false)) as Hfv.
  pose proof (fun plan => good_named scope t [] plan Hf eq_refl eq_refl) as Hnil.
  destruct t as [| | | | | | |u|inl u|u|n fs plan|n u plan|n c0 w vs|d]; try discriminate.
  (* the named types are gone, by [En]; TString, TBool, TFloat and TInt keep the validators of the node *)
  1-4: exact (Hfv _ (Hom _ false)).
  (* TIface, TNullT, TFmt, TPtr, TSlice and TMap get none *)
  1-6: apply Hnil; destruct (g_only_models cf), sub; auto.
  (* TStruct, anonymous by [En] *)
  destruct n; [|discriminate]. destruct plan as [vs|]; exact (good_struct scope [] fs _ _ Hf (Hom _ false)).
Qed.

Lemma good_enum scope carrier w es : good carrier -> good (TEnum scope carrier w es).
Proof. intros [_ H]. split; [reflexivity|exact H]. Qed.

Lemma gen_post : forall fuel m self sub s scope, rpost (fun r => good (fst r)) (gen fuel m self sub s scope).
Proof.
  induction fuel as [|f IH]; intros m self sub s scope; [exact I|]. cbn [Gen.gen]. destruct m.
  - (* generateTypeInline *)
    (* an enum or a reference: generateDeclaredType *)
    destruct (c_enum (s_con s)); [apply IH|]. destruct (c_ref (s_con s)); [apply IH|].
    destruct (s_any_of s) as [|a1 ar].
    + (* allOf: the merged schema, inline *)
      destruct (s_all_of s); [|apply (rpost_bind (fun _ => True)); [destruct (all_of_schema _); exact I|intros; apply IH]].
      (* no type, or more types than one beside null: interface{} *)
      destruct (c_types (s_con s)); [apply good_iface|]. destruct (determine_type (s_con s)) as [tk ptr].
      destruct (_ || _); [apply good_iface|].
      (* a primitive *)
      destruct (is_prim_sty tk); [destruct sub; [exact I|apply good_primitive]|].
      (* an array: a slice of the inline item type; anything else: generateDeclaredType *)
      destruct tk; try apply IH. destruct (s_items s); [|apply good_slice, good_iface].
      apply (rpost_bind _ _ _ _ (IH _ _ _ _ _)). intros r Hr. apply good_slice, Hr.
    + (* generateAnyOfType: the merged struct, with the anyOf validator over the branch types *)
      do 2 (destruct (existsb _ (a1 :: ar)); [exact I|]).
      apply (rpost_bind (fun _ => True)); [destruct (resolve_branches _); exact I|]. intros rs _.
      destruct (existsb _ rs); [exact I|].
      apply (rpost_bind (Forall (fun r => good (fst r)))).
      { apply rpost_rmap. intros ib _. destruct (c_ref _); [split; reflexivity|apply IH]. }
      intros brs Hbrs. destruct (merge_types rs); [|exact I].
      apply (rpost_bind _ _ _ _ (IH _ _ _ _ _)). intros [t0 b0'] [_ HF]. cbn [fst snd] in *.
      destruct t0 as [| | | | | | |?|? ?|?|name fs plan|? ? ?|? ? ? ?|?]; try exact I. destruct name; [exact I|].
      split; [reflexivity|]. cbn [fst]. rewrite F_struct in *. apply andb_true_iff in HF. destruct HF as [-> _].
      destruct (g_only_models cf); [reflexivity|].
      cbn [forallb v_four branches_all]. rewrite orb_true_r, !andb_true_r, forallb_map. cbn [andb].
      apply forallb_forall. intros r Hr. rewrite Forall_forall in Hbrs. exact (proj2 (Hbrs r Hr)).
  - (* generateDeclaredType *)
    destruct (c_enum (s_con s)); [apply IH|]. apply (rpost_bind _ _ _ _ (IH _ _ _ _ _)). intros [t0 b0] Ht. apply good_declare, Ht.
  - (* generateType *)
    destruct (c_enum (s_con s)) as [vals|].
    + (* generateEnumType *)
      destruct vals as [|v0 vr]; [exact I|]. destruct (c_types (s_con s)) as [|ty0 [|ty1 tys]].
      (* no type or several: the carrier is inferred from the values *)
      1,3: destruct (infer_kind _ _) as [k|]; [|exact I]; destruct (rmap _ _); try exact I; apply good_enum; destruct k; split; reflexivity.
      (* one type: the carrier is that primitive *)
      apply (rpost_bind _ _ _ _ (good_primitive _ _ _ _)). intros [carrier b1] Hc.
      destruct ty0; try (destruct (rmap _ _); try exact I; apply good_enum, Hc). destruct (all_numbers_to_int _); [|exact I]. apply good_enum, Hc.
    + destruct (c_ref (s_con s)) as [x|].
      { destruct (lookup x defs) as [d|]; [|exact I]. destruct (c_types (s_con d)), (s_props d); first [apply good_iface | split; reflexivity]. }
      (* the match on anyOf, allOf and the type list compiles to several copies of what follows: it is proved once *)
      set (body := let '(t, ptr) := determine_type (s_con s) in _).
      assert (Hbody : rpost (fun r => good (fst r)) body).
      { subst body. destruct (determine_type (s_con s)) as [tk ptr]. destruct tk; try apply good_primitive.
        - (* SNull *) apply good_iface.
        - (* SObject: generateStructType *)
          destruct (s_props s) as [|p0 pr], (s_all_of s), (s_any_of s); try exact I.
          { destruct (s_addl s); [|apply good_map, good_iface]. apply (rpost_bind _ _ _ _ (IH _ _ _ _ _)). intros r Hr. apply good_map, Hr. }
          apply (rpost_bind (Forall info_ok)); [|intros infos Hi; apply build_struct_F, Hi].
          apply rpost_rmap. intros [fname [k p]] _. apply (rpost_bind _ _ _ _ (IH _ _ _ _ _)). intros [ty bp] Hg. apply make_field_ok, Hg.
        - (* SArray *) destruct (s_items s); [|exact I]. apply (rpost_bind _ _ _ _ (IH _ _ _ _ _)). intros r Hr. apply good_slice, Hr. }
      clearbody body. destruct (s_any_of s), (s_all_of s), (c_types (s_con s)); exact I || exact Hbody.
Qed.

Theorem gen_good : forall fuel m self sub s scope t b, gen fuel m self sub s scope = Done (t, b) -> good t.
Proof. intros fuel m self sub s scope t b. exact (rpost_Done _ _ _ (gen_post fuel m self sub s scope)). Qed.
End Main.

Theorem gen_wf idf cf defs env fuel m self sub s scope t b :
  Gen.gen idf cf defs fuel m self sub s scope = Done (t, b) ->
  wf_s env (v_resid env) t = true -> wf_ty env t = true.
Proof.
  intros Hg Hr. apply wf_strict_wf. rewrite W_split, Hr. destruct (gen_good idf cf defs env _ _ _ _ _ _ _ _ Hg) as [_ Hf]. rewrite Hf. reflexivity.
Qed.

Theorem gen_file_wf idf cf defs root root_name p :
  gen_file idf cf defs root root_name = Done p ->
  (forall d u, In (d, u) (p_defs p) -> wf_s (p_defs p) (v_resid (p_defs p)) u = true) ->
  (forall rt, p_root p = Some rt -> wf_s (p_defs p) (v_resid (p_defs p)) rt = true) ->
  env_wf (p_defs p) /\ (forall rt, p_root p = Some rt -> wf_ty (p_defs p) rt = true).
Proof.
  unfold gen_file. intros H Hd Hr. apply rbind_Done in H. destruct H as [ds [H1 H2]].
  assert (Hds : forall d u, In (d, u) ds -> wf_s ds (v_resid ds) u = true -> wf_ty ds u = true).
  { intros d u Hin. destruct (Forall2_In_r _ _ _ (d, u) (rmap_Done _ _ _ H1) Hin) as [kd [_ Hkd]].
    apply rbind_Done in Hkd. destruct Hkd as [[t0 b0] [Hg [= _ <-]]]. exact (gen_wf _ _ _ _ _ _ _ _ _ _ _ _ Hg). }
  assert (Hp : p_defs p = ds /\ forall rt, p_root p = Some rt -> wf_s ds (v_resid ds) rt = true -> wf_ty ds rt = true).
  { destruct (c_types (s_con root)); [injection H2 as <-; split; [reflexivity|discriminate]|].
    apply rbind_Done in H2. destruct H2 as [[t0 b0] [Hg [= <-]]]. split; [reflexivity|].
    intros rt [= <-]. exact (gen_wf _ _ _ _ _ _ _ _ _ _ _ _ Hg). }
  destruct Hp as [Ep Hroot]. rewrite Ep in *. split.
  - intros d u Hl. apply lookup_In in Hl. exact (Hds d u Hl (Hd d u Hl)).
  - intros rt E. exact (Hroot rt E (Hr rt E)).
Qed.

(* with C19_total: the methods generated for a file never panic, on any document, as soon as the residue holds *)
Theorem generated_never_panics fmt_ok idf cf defs root root_name p :
  gen_file idf cf defs root root_name = Done p ->
  (forall d u, In (d, u) (p_defs p) -> wf_s (p_defs p) (v_resid (p_defs p)) u = true) ->
  (forall rt, p_root p = Some rt -> wf_s (p_defs p) (v_resid (p_defs p)) rt = true) ->
  (forall rt, p_root p = Some rt -> forall f j, dec fmt_ok (p_defs p) f rt j <> Crash) /\
  (forall d u, lookup d (p_defs p) = Some u -> forall f j, dec fmt_ok (p_defs p) f u j <> Crash).
Proof.
  intros Hg Hd Hr. destruct (gen_file_wf _ _ _ _ _ _ Hg Hd Hr) as [He Hrt]. split.
  - intros rt E f j. apply dec_never_panics; [exact He|exact (Hrt rt E)].
  - intros d u E f j. apply dec_never_panics; [exact He|exact (He d u E)].
Qed.

Lemma names_ok_of_nodup fs : NoDup (map f_name fs) -> Forall (fun s : str => s <> []) (map f_name fs) -> names_ok fs = true.
Proof.
  induction fs as [|f r IH]; intros ND NE; [reflexivity|]. cbn [map] in *. inversion ND as [|? ? Hn ND']; subst. inversion NE as [|? ? He NE']; subst.
  cbn [names_ok]. rewrite (IH ND' NE'), andb_true_r. apply andb_true_iff. split.
  - destruct (f_name f); [contradiction|reflexivity].
  - apply negb_true_iff. destruct (mem (f_name f) (map f_name r)) eqn:E; [|reflexivity]. apply mem_In in E. contradiction.
Qed.

Lemma infos_names defs rec c self scope : forall nps infos,
  rmap (gen_field defs rec c self scope) nps = Done infos ->
  map (fun i : finfo => f_name (fst (fst i))) infos = map fst nps.
Proof. intros nps infos H. exact (fields_of_names defs _ _ _ _ _ _ (gen_fields_Done defs _ _ _ _ _ _ H)). Qed.

(* without an additional-properties field: names_ok as soon as the identifiers are non-empty and free of underscores *)
Theorem struct_names_ok idf defs rec c self scope props infos :
  Forall no_us (map (fun kp : str * schema => idf (fst kp)) (sort_props props)) ->
  Forall (fun s : str => s <> []) (map (fun kp : str * schema => idf (fst kp)) (sort_props props)) ->
  rmap (gen_field defs rec c self scope) (prop_names idf props) = Done infos ->
  names_ok (map (fun i : finfo => fst (fst i)) infos) = true.
Proof.
  intros Hus Hne H. apply names_ok_of_nodup; rewrite map_map, (infos_names _ _ _ _ _ _ _ H), prop_names_fst.
  - exact (field_names_distinct _ Hus).
  - exact (assign_fields_nonempty _ [] Hne).
Qed.
