(* C02 - valid documents are accepted and decoded without loss.
   Statements only; every proof is `exact <lemma>` or a line or two from one (C02_level_exact instantiates the stronger
   LevelP.level_exact, which asks for the per-property hypothesis at present keys only), the refutation is evaluated;
   Print Assumptions under each general statement.
   Proved here: the value-level half (no truncation, coercion or precision loss at any scalar,
   binding of every key to its own field) and that validators reject only on the stated constraints
   (C05_normalize, C05_validator_*, C06_validator, C07_level are equalities with the specification,
   so they accept every valid value).  The statement "every valid document is accepted" for whole
   schemas (C02_full below) is decided on the implementation by the correspondence run together with
   the reference semantics Spec/Valid.v; its general proof over all schemas is not done (partial). *)
From GJS Require Import Base Schema GoType Gen Exec Valid ExecP GenP MethodP LevelP NestedP.

Definition C02_full : Prop :=
  forall fmt_ok idf cf defs root name p t j,
    gen_file idf cf defs root name = Done p -> p_root p = Some t ->
    valid fmt_ok defs 100 root j = true -> exists v, dec fmt_ok (p_defs p) exec_fuel t j = Ok v.

(* a declared struct whose method only checks (no default assignment, no composite, no additional-properties field), any JSON object:
   accepted iff every required key is present, every present key decodes into its field, every check passes on the decoded
   fields - both directions, every field list, validator list and document; and the accepted value is exactly the decoded
   fields (nothing lost, nothing added).  With C05/C06/C07 (each check = its specification) this is "valid iff accepted" for
   one level; the levels compose through [field_decodes]. *)
Theorem C02_struct_exact : forall fmt_ok env f c n fs vs kv, forallb check_only vs = true -> find f_addl fs = None ->
  is_ok (dec fmt_ok env (S f) (TStruct (c :: n) fs (Some vs)) (JObj kv)) =
    forallb (fun v => is_ok (before_step (dec fmt_ok env f) (raw_of vs kv) (JObj kv) v)) vs &&
    match plain_fields (dec fmt_ok env f) zero fs (JObj kv) with
    | Ok st => forallb (fun v => is_ok (after_step (default_val env dv_fuel) (raw_of vs kv) st v)) vs
    | _ => false
    end.
Proof. exact struct_exact. Qed.
Print Assumptions C02_struct_exact.
Theorem C02_struct_value : forall fmt_ok env f c n fs vs kv st, forallb check_only vs = true -> find f_addl fs = None ->
  dec fmt_ok env (S f) (TStruct (c :: n) fs (Some vs)) (JObj kv) = Ok st ->
  plain_fields (dec fmt_ok env f) zero fs (JObj kv) = Ok st.
Proof. exact struct_exact_value. Qed.
Print Assumptions C02_struct_value.
Theorem C02_fields_decode : forall decf zf fs kv,
  is_ok (plain_fields decf zf fs (JObj kv)) = true <-> forallb (field_decodes decf kv) fs = true.
Proof. exact plain_fields_is_ok. Qed.
Print Assumptions C02_fields_decode.

(* the generator produces exactly such methods: an object schema without additionalProperties none of whose properties has a default *)
Theorem C02_generated_checks_only : forall idf cf defs f self sub s scope t b,
  plain_object s -> s_addl s = None -> (forall k p, In (k, p) (s_props s) -> c_default (s_con p) = None) -> s_props s <> [] ->
  gen idf cf defs (S f) MType self sub s scope = Done (t, b) ->
  exists fs vs, t = TStruct [] fs (Some vs) /\ forallb check_only vs = true /\ find f_addl fs = None.
Proof. intros idf cf defs f self sub s scope t b Hp Ha Hd _. exact (object_method_checks_only idf cf defs f self sub s scope t b Hp Ha Hd). Qed.
Print Assumptions C02_generated_checks_only.

(* one level of an object schema against the reference semantics, both directions: IF the checks attached to every property are exact on
   that property's values (C05 / C06 / C07 for scalars, strings, arrays; this theorem itself for a nested object), THEN the declared struct
   accepts a JSON object iff it is valid under the schema.  Guards as hypotheses: no default, no additionalProperties keyword, required keys
   are declared, keys are distinct, field names are distinct and non-empty (NamesP), not --only-models. *)
Theorem C02_level_exact : forall idf cf defs fmt_ok env sdefs f fd fv self sub s scope t b kv,
  g_only_models cf = false -> scope <> [] ->
  plain_object s -> c_types (s_con s) = [SObject] -> s_addl s = None -> s_addl_false s = false ->
  (forall k p, In (k, p) (s_props s) -> c_default (s_con p) = None) ->
  NoDup (map fst (s_props s)) -> NoDup (map fst kv) ->
  incl (c_required (s_con s)) (map fst (s_props s)) ->
  NoDup (map fst (prop_names idf (s_props s))) -> (forall fname kp, In (fname, kp) (prop_names idf (s_props s)) -> fname <> []) ->
  gen idf cf defs (S (S f)) MDeclared self sub s scope = Done (t, b) ->
  (forall fname k p ty bp, In (fname, (k, p)) (prop_names idf (s_props s)) ->
     gen idf cf defs f MInline self false p (scope ++ fname) = Done (ty, bp) ->
     match lookup k kv with
     | Some x => field_ok (dec fmt_ok env fd) zero (default_val env dv_fuel) kv (pair_of (make_field defs (s_con s) self fname k p ty bp)) = valid fmt_ok sdefs fv p x
     | None => mem k (c_required (s_con s)) = false ->
               field_ok (dec fmt_ok env fd) zero (default_val env dv_fuel) kv (pair_of (make_field defs (s_con s) self fname k p ty bp)) = true
     end) ->
  is_ok (dec fmt_ok env (S fd) t (JObj kv)) = valid fmt_ok sdefs (S fv) s (JObj kv).
Proof.
  intros idf cf defs fmt_ok env sdefs f fd fv self sub s scope t b kv Hom Hsc Hp Hty Ha Haf Hd Np Nk Hreq Nn Hne Hg Hfield.
  apply (level_exact idf cf defs fmt_ok env sdefs f fd fv self sub s scope t b kv); try assumption.
  intros fname k p ty bp x Hin Hgen El. specialize (Hfield fname k p ty bp Hin Hgen). rewrite El in Hfield. exact Hfield.
Qed.
Print Assumptions C02_level_exact.

(* the field-level hypothesis discharged for the three scalar kinds: objects of constrained strings, integers and booleans, end to end *)
Theorem C02_scalar_objects_exact : forall idf cf defs fmt_ok env sdefs f fd fv self sub s scope t b kv,
  g_minsized cf = false -> g_only_models cf = false -> scope <> [] ->
  plain_object s -> c_types (s_con s) = [SObject] -> s_addl s = None -> s_addl_false s = false ->
  (forall k p, In (k, p) (s_props s) -> str_leaf p \/ int_leaf p \/ bool_leaf p) ->
  NoDup (map fst (s_props s)) -> NoDup (map fst kv) ->
  incl (c_required (s_con s)) (map fst (s_props s)) ->
  NoDup (map fst (prop_names idf (s_props s))) -> (forall fname kp, In (fname, kp) (prop_names idf (s_props s)) -> fname <> []) ->
  (forall k p x, In (k, p) (s_props s) -> lookup k kv = Some x ->
     x <> JNull /\ (str_leaf p -> forall s0, x = JStr s0 -> utf8_len s0 = length s0) /\ (int_leaf p -> int_value x)) ->
  gen idf cf defs (S (S (S f))) MDeclared self sub s scope = Done (t, b) ->
  is_ok (dec fmt_ok env (S (S (S fd))) t (JObj kv)) = valid fmt_ok sdefs (S (S fv)) s (JObj kv).
Proof. exact scalar_object_exact. Qed.
Print Assumptions C02_scalar_objects_exact.

(* ... and through every depth: objects whose properties are leaves of one of ten kinds - such strings, integers and booleans, numbers with
   any combination of the four bounds (no multipleOf), arrays and maps of plain strings, numbers or booleans, and string, integer, number
   and boolean enums - or references to definitions that are such objects, or, recursively, such objects again, nested n levels deep
   ([sobj n]); documents without nulls (array items included), with ASCII strings, integer literals inside Go's int and distinct keys at
   every level ([dok n]).
   By induction on n over C02_level_exact: the check attached to an object-valued property is the nested struct's own method. *)
Theorem C02_nested_objects_exact : forall idf cf defs fmt_ok env sdefs,
  g_minsized cf = false -> g_only_models cf = false ->
  forall n a b c self sub s scope t bb kv,
  scope <> [] -> sobj idf cf defs env sdefs n s -> dok idf cf defs env sdefs n s kv ->
  gen idf cf defs (fuelG n a) MDeclared self sub s scope = Done (t, bb) ->
  is_ok (dec fmt_ok env (fuelD n b) t (JObj kv)) = valid fmt_ok sdefs (fuelV n c) s (JObj kv).
Proof. exact nested_object_exact. Qed.
Print Assumptions C02_nested_objects_exact.

(* non-vacuity: {o: {a: string minLength 2 (required), b: string maxLength 3}, b: string maxLength 3; o required}; one valid document and
   one whose nested string is too short - the theorem applies to both, and the model computes the same verdicts *)
Theorem C02_nested_inhabited :
  exists t b, gen (fun s => s) (mkCfg false false) [] (fuelG 1 0) MDeclared None false ex_outer [82]%N = Done (t, b) /\
    is_ok (dec (fun _ _ => true) [] (fuelD 1 0) t (JObj ex_outer_doc)) = valid (fun _ _ => true) [] (fuelV 1 0) ex_outer (JObj ex_outer_doc) /\
    valid (fun _ _ => true) [] (fuelV 1 0) ex_outer (JObj ex_outer_doc) = true /\
    is_ok (dec (fun _ _ => true) [] (fuelD 1 0) t (JObj ex_outer_bad)) = valid (fun _ _ => true) [] (fuelV 1 0) ex_outer (JObj ex_outer_bad) /\
    valid (fun _ _ => true) [] (fuelV 1 0) ex_outer (JObj ex_outer_bad) = false.
Proof. exact nested_inhabited. Qed.
Print Assumptions C02_nested_inhabited.

(* non-vacuity of the array and number leaves: {tags: [string] with 1..2 items (required), w: number >= 1/2} on a valid document, one with
   three items and one with w = 1/4 *)
Theorem C02_flat_inhabited :
  exists t b, gen (fun s => s) (mkCfg false false) [] (fuelG 0 1) MDeclared None false ex_flat [82]%N = Done (t, b) /\
    (forall kv, In kv [ex_flat_ok; ex_flat_long; ex_flat_low] ->
       is_ok (dec (fun _ _ => true) [] (fuelD 0 0) t (JObj kv)) = valid (fun _ _ => true) [] (fuelV 0 0) ex_flat (JObj kv)) /\
    map (fun kv => valid (fun _ _ => true) [] (fuelV 0 0) ex_flat (JObj kv)) [ex_flat_ok; ex_flat_long; ex_flat_low] = [true; false; false].
Proof. exact flat_inhabited. Qed.
Print Assumptions C02_flat_inhabited.

(* non-vacuity of the reference case: {r: $ref D (required), b: string maxLength 3}, D an object definition, env = the declared type of D *)
Theorem C02_ref_inhabited :
  exists t b, gen (fun s => s) (mkCfg false false) ex_defs (fuelG 1 0) MDeclared None false ex_refroot [82]%N = Done (t, b) /\
    (forall kv, In kv [ex_ref_doc; ex_ref_bad] ->
       is_ok (dec (fun _ _ => true) ex_env (fuelD 1 0) t (JObj kv)) = valid (fun _ _ => true) ex_defs (fuelV 1 0) ex_refroot (JObj kv)) /\
    map (fun kv => valid (fun _ _ => true) ex_defs (fuelV 1 0) ex_refroot (JObj kv)) [ex_ref_doc; ex_ref_bad] = [true; false].
Proof. exact ref_inhabited. Qed.
Print Assumptions C02_ref_inhabited.

Theorem C02_string : forall fmt_ok env f s, dec fmt_ok env (S f) TString (JStr s) = Ok (GS s).
Proof. exact dec_string_lossless. Qed.
Print Assumptions C02_string.
Theorem C02_boolean : forall fmt_ok env f b, dec fmt_ok env (S f) TBool (JBool b) = Ok (GB b).
Proof. exact dec_bool_lossless. Qed.
Print Assumptions C02_boolean.
Theorem C02_number : forall fmt_ok env f n, dec fmt_ok env (S f) TFloat (JNum n) = Ok (GF (nq n)).
Proof. exact dec_float_lossless. Qed.
Print Assumptions C02_number.
Theorem C02_integer : forall fmt_ok env f k z, in_range k z = true -> dec fmt_ok env (S f) (TInt k) (JInt z) = Ok (GI z).
Proof. exact dec_int_lossless. Qed.
Print Assumptions C02_integer.
Theorem C02_format : forall fmt_ok env f k s, fmt_ok k s = true -> dec fmt_ok env (S f) (TFmt k) (JStr s) = Ok (GFm (Some s)).
Proof. exact dec_fmt_lossless. Qed.
Print Assumptions C02_format.
Theorem C02_untyped : forall fmt_ok env f j, j <> JNull -> dec fmt_ok env (S f) TIface j = Ok (GJ j).
Proof. exact dec_iface_lossless. Qed.
Print Assumptions C02_untyped.
Theorem C02_optional : forall fmt_ok env f u j v, j <> JNull -> dec fmt_ok env f u j = Ok v -> dec fmt_ok env (S f) (TPtr u) j = Ok (GP v).
Proof. exact dec_ptr_lossless. Qed.
Print Assumptions C02_optional.

(* every declared key lands in the field generated for it (the generator binds field and key: GenP.object_field_bound) *)
Theorem C02_binding : forall decf zf fs kv fl xj x st,
  NoDup (map f_name fs) -> In fl fs -> f_addl fl = false -> f_name fl <> [] ->
  lookup (f_json fl) kv = Some xj -> decf (f_ty fl) xj = Ok x ->
  plain_fields decf zf fs (JObj kv) = Ok st -> get_plain (f_name fl) st = Some x.
Proof. exact plain_fields_state. Qed.
Print Assumptions C02_binding.
Theorem C02_field_for_every_property : forall idf cf defs f self sub s scope t b k p,
  plain_object s -> gen idf cf defs (S f) MType self sub s scope = Done (t, b) -> In (k, p) (s_props s) ->
  exists fs plan fl ty bp, t = TStruct [] fs (Some plan) /\ In fl fs /\ f_json fl = k /\ f_addl fl = false /\
    gen idf cf defs f MInline self false p (scope ++ f_name fl) = Done (ty, bp) /\ (f_ty fl = ty \/ f_ty fl = TPtr ty).
Proof. exact object_field_bound. Qed.
Print Assumptions C02_field_for_every_property.

(* refuted in full (D12): an integer written 5.0 is valid JSON Schema `integer` but is rejected *)
Theorem C02_refuted_integer_literal : exists j, type_matches SInteger j = true /\ is_ok (dec (fun _ _ => true) [] 5 (TInt KInt) j) = false.
Proof. exists (JNum (mkNum 5 false)). vm_compute. split; reflexivity. Qed.
