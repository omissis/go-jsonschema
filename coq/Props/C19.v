(* C19 - generated unmarshalers are total and all-or-nothing.
   Statements only; every proof is `exact <lemma>` or a line or two from one, examples and refutations are evaluated;
   Print Assumptions under each.
   In the model a method has three outcomes besides running out of fuel: Ok v, Err, Crash (a panic,
   or code that cannot have compiled).  All-or-nothing is how the method is laid out
   (json_formatter.go: decode into the local `plain`, validate, assign `*j` last): the model's only
   way to change the destination is the Ok result.  Totality (no Crash) is the typing invariant
   "every validator names a field of the shape it dereferences" ([wf_ty], a decidable predicate on the
   generated type tree, Proofs/WfP.v): under it NO document and NO fuel leads to a panic.  [wf_ty] is
   evaluated on the type the model generates for every schema of the correspondence families (RunCore.case_wf).
   For every schema, [wf_ty] of the generated type reduces to a residue (Proofs/GenWfP.v, [wf_s (v_resid env)]): distinct non-empty
   field names, default literals that fit their field, the additional-properties block having a raw map, references that resolve;
   that the string / numeric / array / null-type validators name fields of the right shape holds by construction of the
   generator, for every schema and every fuel (C19_generated_wf), so the generated methods of a whole file never panic
   once the residue holds (C19_generated_total).  Composite types are inside the theorem: the method of an anyOf carrier decodes the
   document with every branch type, and [wf_ty] of the carrier asks for [wf_ty] of its branch types (C19_anyof_wf_inhabited). *)
From GJS Require Import Base Schema GoType Gen Exec Valid ExecP GenP CoreP WfP GenWfP MergeP AnyOfP.

Theorem C19_atomic : forall fmt_ok env dest f t j,
  snd (unmarshal_into fmt_ok env dest f t j) = false -> fst (unmarshal_into fmt_ok env dest f t j) = dest.
Proof. exact unmarshal_into_atomic. Qed.
Print Assumptions C19_atomic.

(* totality: every JSON document (any shape, any depth), every fuel; [None] for malformed bytes is the
   first Unmarshal call failing before anything is touched *)
Theorem C19_total : forall fmt_ok env, env_wf env -> forall f t j, wf_ty env t = true -> dec fmt_ok env f t j <> Crash.
Proof. exact dec_never_panics. Qed.
Print Assumptions C19_total.

(* with it, every decoded value has the shape of its Go type (the invariant the proof carries) *)
Theorem C19_shapes : forall fmt_ok env, env_wf env -> forall f t, wf_ty env t = true -> dec_good (dec fmt_ok env f) t.
Proof. exact dec_safe. Qed.
Print Assumptions C19_shapes.

(* for every schema: the generated type is well formed as soon as its residue is *)
Theorem C19_generated_wf : forall idf cf defs env fuel m self sub s scope t b,
  gen idf cf defs fuel m self sub s scope = Done (t, b) -> wf_s env (v_resid env) t = true -> wf_ty env t = true.
Proof. exact gen_wf. Qed.
Print Assumptions C19_generated_wf.

Theorem C19_generated_total : forall fmt_ok idf cf defs root root_name p,
  gen_file idf cf defs root root_name = Done p ->
  (forall d u, In (d, u) (p_defs p) -> wf_s (p_defs p) (v_resid (p_defs p)) u = true) ->
  (forall rt, p_root p = Some rt -> wf_s (p_defs p) (v_resid (p_defs p)) rt = true) ->
  (forall rt, p_root p = Some rt -> forall f j, dec fmt_ok (p_defs p) f rt j <> Crash) /\
  (forall d u, lookup d (p_defs p) = Some u -> forall f j, dec fmt_ok (p_defs p) f u j <> Crash).
Proof. exact generated_never_panics. Qed.
Print Assumptions C19_generated_total.

(* the names part of the residue is itself a theorem: identifiers that are non-empty and free of underscores (IdentP / NamesP: every
   identifier built from a name inside the character guard) give a struct with distinct non-empty field names *)
Theorem C19_residue_names : forall idf defs rec c self scope props infos,
  Forall NamesP.no_us (map (fun kp : str * schema => idf (fst kp)) (sort_props props)) ->
  Forall (fun s : str => s <> []) (map (fun kp : str * schema => idf (fst kp)) (sort_props props)) ->
  rmap (gen_field defs rec c self scope) (prop_names idf props) = Done infos ->
  names_ok (map (fun i : finfo => fst (fst i)) infos) = true.
Proof. exact struct_names_ok. Qed.
Print Assumptions C19_residue_names.

(* non-vacuity: the type generated for a schema with required, defaulted, constrained and nested properties is well formed *)
Definition wf_schema : schema :=
  Sch (mkC [SObject] None None [[97]%N] 0 0 0 0 None None (mkBounds None None None None) None None)
      [([97]%N, Sch (mkC [SString] None None [] 0 0 2 0 None None (mkBounds None None None None) None None) [] None false None [] []);
       ([98]%N, Sch (mkC [SInteger] None None [] 0 0 0 0 None None (mkBounds (Some 0%Q) None None None) (Some (JInt 3)) None) [] None false None [] []);
       ([99]%N, Sch (mkC [SArray] None None [] 1 0 0 0 None None (mkBounds None None None None) None None) [] None false
                  (Some (Sch (mkC [SArray] None None [] 1 0 0 0 None None (mkBounds None None None None) None None) [] None false
                          (Some (Sch (mkC [SNumber] None None [] 0 0 0 0 None None (mkBounds None None None None) None None) [] None false None [] [])) [] [])) [] [])]
      None false None [] [].
Example C19_wf_inhabited :
  exists t b, gen (fun s => s) (mkCfg false false) [] 20 MDeclared None false wf_schema [82]%N = Done (t, b) /\ wf_ty [] t = true.
Proof. eexists. eexists. split; [vm_compute; reflexivity|]. vm_compute. reflexivity. Qed.
Print Assumptions C19_wf_inhabited.

(* the same for a composite: the carrier struct generated for an anyOf of two object branches, with its branch types *)
Example C19_anyof_wf_inhabited :
  exists t b, gen (fun s => s) (mkCfg false false) [] 6 MInline None false ex_any ex_t = Done (t, b) /\ wf_ty [] t = true /\
    (exists fs b0 b1, t = TStruct ex_t fs (Some [VAnyOf [b0; b1]])).
Proof. eexists. eexists. split; [vm_compute; reflexivity|]. split; [vm_compute; reflexivity|]. do 3 eexists. reflexivity. Qed.
Print Assumptions C19_anyof_wf_inhabited.

(* refuted in full (D30): the additional-properties block is emitted without a nil guard; null
   panics a struct with typed additionalProperties *)
Definition addl_schema : schema :=
  Sch (mkC [SObject] None None [] 0 0 0 0 None None (mkBounds None None None None) None None)
      [([97]%N, Sch (mkC [SString] None None [] 0 0 0 0 None None (mkBounds None None None None) None None) [] None false None [] [])]
      (Some (Sch (mkC [SNumber] None None [] 0 0 0 0 None None (mkBounds None None None None) None None) [] None false None [] [])) false None [] [].
Theorem C19_refuted_addl_null :
  exists t b, gen (fun s => s) (mkCfg false false) [] 20 MDeclared None false addl_schema [82]%N = Done (t, b) /\
    dec (fun _ _ => true) [] 20 t JNull = Crash /\ wf_ty [] t = false.
Proof. eexists. eexists. split; [vm_compute; reflexivity|]. vm_compute. split; reflexivity. Qed.
Print Assumptions C19_refuted_addl_null.
