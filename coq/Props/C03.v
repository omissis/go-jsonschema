(* C03 - a value of the wrong JSON type is rejected; null is accepted where allowed.
   Statements only; every proof is `exact <lemma>` (C03_null drops a hypothesis that ExecP.dec_null_nil does not need) except
   C03_nullable_is_pointer, a case analysis on the type, and the example; Print Assumptions under each general statement. *)
From GJS Require Import Base Schema GoType Gen Exec Valid ExecP NestedP.

(* scalar Go types (string, bool, float64, every int kind, the format types) accept exactly their
   own JSON type; an integer kind accepts only integral numbers written as integer literals within
   its range; every other non-null value is rejected - for every fuel *)
Theorem C03_scalar : forall fmt_ok env f t j,
  is_base t = true -> j <> JNull -> base_accepts fmt_ok t j = false -> is_ok (dec fmt_ok env f t j) = false.
Proof. exact dec_base_type. Qed.
Print Assumptions C03_scalar.

Theorem C03_array : forall fmt_ok env f inl e j, j <> JNull -> (forall l, j <> JArr l) -> is_ok (dec fmt_ok env f (TSlice inl e) j) = false.
Proof. exact dec_slice_type. Qed.
Print Assumptions C03_array.
Theorem C03_map : forall fmt_ok env f e j, j <> JNull -> (forall kv, j <> JObj kv) -> is_ok (dec fmt_ok env f (TMap e) j) = false.
Proof. exact dec_map_type. Qed.
Print Assumptions C03_map.
Theorem C03_object : forall fmt_ok env f name fs plan j, j <> JNull -> (forall kv, j <> JObj kv) ->
  is_ok (dec fmt_ok env f (TStruct name fs plan) j) = false.
Proof. exact dec_struct_type. Qed.
Print Assumptions C03_object.

(* at every nesting depth and through references: a rejected component rejects the document *)
Theorem C03_every_depth : forall fmt_ok env t j t' j', inside_star env t j t' j' ->
  (forall f, is_ok (dec fmt_ok env f t' j') = false) -> forall f, is_ok (dec fmt_ok env f t j) = false.
Proof. exact inside_star_fails. Qed.
Print Assumptions C03_every_depth.

(* where the schema lists null ([T, "null"] becomes a pointer; arrays, maps and untyped positions are
   nillable as they are) null is accepted and yields nil *)
Theorem C03_null : forall fmt_ok env f t, S f <> 0 ->
  (match t with TPtr _ | TSlice _ _ | TMap _ | TIface | TNullT => true | _ => false end) = true ->
  dec fmt_ok env (S f) t JNull = Ok GNil.
Proof. intros fmt_ok env f t _. apply dec_null_nil. Qed.
Print Assumptions C03_null.

(* the type chosen for a nullable primitive is a pointer to the primitive's type *)
Theorem C03_nullable_is_pointer : forall cf t fmt b,
  match t with SString | SNumber | SInteger | SBoolean => True | _ => False end ->
  exists u b', primitive cf t fmt true b = Done (TPtr u, b') /\ primitive cf t fmt false b = Done (u, b').
Proof.
  intros cf t fmt b H. destruct t; try contradiction; cbn.
  - destruct fmt; eexists; eexists; split; reflexivity.
  - destruct (primitive_int (g_minsized cf) b) as [k b']. eexists; eexists; split; reflexivity.
  - eexists; eexists; split; reflexivity.
  - eexists; eexists; split; reflexivity.
Qed.
Print Assumptions C03_nullable_is_pointer.

Example C03_example : forall env f,
  is_ok (dec (fun _ _ => true) env f (TInt KInt) (JQ (3 # 2))) = false /\
  is_ok (dec (fun _ _ => true) env f TString (JInt 1)) = false /\
  inside_star env (TSlice true (TPtr TString)) (JArr [JStr [97]%N; JBool true]) TString (JBool true).
Proof.
  intros env f. repeat split.
  - apply dec_base_type; [reflexivity|discriminate|reflexivity].
  - apply dec_base_type; [reflexivity|discriminate|reflexivity].
  - eapply is_step; [apply in_slice; right; left; reflexivity|]. eapply is_step; [apply in_ptr; discriminate|]. apply is_refl.
Qed.

(* end to end, at every position the nested theorem covers (C02_nested_objects_exact: "accepted iff valid" includes "a value of another JSON
   type is rejected"): instance for map values - {labels: map of strings (required)} on a map of strings, a map with a number, a string in
   place of the map, the empty map and the empty object *)
Theorem C03_map_values_inhabited :
  exists t b, gen (fun s => s) (mkCfg false false) [] (fuelG 0 3) MDeclared None false ex_map_obj [82]%N = Done (t, b) /\
    (forall kv, In kv ex_map_docs ->
       is_ok (dec (fun _ _ => true) [] (fuelD 0 0) t (JObj kv)) = valid (fun _ _ => true) [] (fuelV 0 0) ex_map_obj (JObj kv)) /\
    map (fun kv => valid (fun _ _ => true) [] (fuelV 0 0) ex_map_obj (JObj kv)) ex_map_docs = [true; false; false; true; false].
Proof. exact map_inhabited. Qed.
Print Assumptions C03_map_values_inhabited.
