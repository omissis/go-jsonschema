(* C14 - every name maps to a valid, distinct Go identifier bound to its JSON key.
   Statements only; every proof is `exact <lemma>` or a line or two from one, examples and refutations are evaluated;
   Print Assumptions under each general statement.
   [U : uinfo] is an arbitrary character oracle (Go's unicode tables are one instance: the
   harness dumps the rows for every code point in use and checks the model against the
   real Caser on them). *)
From GJS Require Import Base Ident IdentP NamesP.

(* the splitter drops exactly the separator characters (non-letters that are not numbers):
   the concatenation of the parts is the input without them, for every string *)
Theorem C14_split_concat : forall U s, concat (split_ident U s) = filter (keeps U) s.
Proof. exact split_concat. Qed.
Print Assumptions C14_split_concat.

Theorem C14_split_parts_nonempty : forall U s, Forall (fun p => p <> []) (split_ident U s).
Proof. exact split_parts_nonempty. Qed.
Print Assumptions C14_split_parts_nonempty.

(* every name whose characters are `good` (cased letters whose upper-case image is an
   upper-case letter, caseless letters, decimal digits, separators) becomes a valid Go
   identifier, for every capitalisation list made of identifier characters *)
Theorem C14_valid : forall U caps s,
  blank_ok U -> caps_ok U caps -> forallb (good U) s = true -> go_ident U (identifierize U caps s) = true.
Proof. exact identifierize_valid. Qed.
Print Assumptions C14_valid.

(* ... and an exported one *)
Theorem C14_exported : forall U caps s,
  blank_ok U -> Forall (cap_start_ok U) caps -> forallb (good U) s = true -> exported U (identifierize U caps s) = true.
Proof. exact identifierize_exported. Qed.
Print Assumptions C14_exported.

(* identifiers never contain '_' (it is a separator), so the `_n` suffixes cannot collide with another
   name: sibling properties ALWAYS get pairwise distinct field names - for every set of sibling names
   inside the character guard, however many of them normalise to the same identifier *)
Theorem C14_no_underscore : forall U caps s,
  underscore_is_separator U -> Forall no_us caps -> forallb (good U) s = true -> no_us (identifierize U caps s).
Proof. exact identifierize_no_underscore. Qed.
Print Assumptions C14_no_underscore.

Theorem C14_fields_distinct : forall U caps names,
  underscore_is_separator U -> Forall no_us caps -> Forall (fun n => forallb (good U) n = true) names ->
  NoDup (field_names (map (identifierize U caps) names)).
Proof. exact sibling_fields_distinct. Qed.
Print Assumptions C14_fields_distinct.

(* the suffixing itself, for arbitrary underscore-free identifiers *)
Theorem C14_suffixing_distinct : forall ids, Forall no_us ids -> NoDup (field_names ids).
Proof. exact field_names_distinct. Qed.
Print Assumptions C14_suffixing_distinct.

(* a type name handed out by uniqueTypeName is not one of the completed declarations *)
Theorem C14_type_name_fresh : forall name taken all r, (forall x, In x taken -> In x all) ->
  unique_type_name name taken all = Some r -> ~ In r taken.
Proof. exact unique_type_name_fresh. Qed.
Print Assumptions C14_type_name_fresh.

(* refuted in full: uniqueTypeName treats a declaration still in progress as free, so the base name is
   handed out twice (D38) *)
Theorem C14_refuted_in_progress : exists name taken all, In name all /\ unique_type_name name taken all = Some name.
Proof. exists [84]%N, [], [[84]%N]. split; [left; reflexivity|reflexivity]. Qed.

Example C14_example : field_names [[70]%N; [70]%N; [71]%N; [70]%N] = [[70]%N; [70; 95; 50]%N; [71]%N; [70; 95; 51]%N].
Proof. reflexivity. Qed.
