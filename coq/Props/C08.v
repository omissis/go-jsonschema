(* C08 - enum values are exactly the accepted set.
   Statements only; every proof is `exact <lemma>` or a line or two from one, examples and refutations are evaluated;
   Print Assumptions under each general statement. *)
From GJS Require Import Base Schema GoType Gen Exec Valid ExecP GenP LevelP NestedP EnumP EnumObjP.

(* the enum method decodes into the carrier and accepts iff reflect.DeepEqual finds the value in the table *)
Theorem C08_non_member : forall fmt_ok env f name c w vals j,
  (forall f v, dec fmt_ok env f c j = Ok v -> existsb (enum_eq c v) vals = false) ->
  is_ok (dec fmt_ok env f (TEnum name c w vals) j) = false.
Proof. exact enum_rejects_non_member. Qed.
Print Assumptions C08_non_member.
Theorem C08_member : forall fmt_ok env f name c vals j v,
  dec fmt_ok env f c j = Ok v -> existsb (enum_eq c v) vals = true -> dec fmt_ok env (S f) (TEnum name c false vals) j = Ok v.
Proof. exact enum_accepts_member. Qed.
Print Assumptions C08_member.

(* on a string carrier table membership is JSON equality with one of the listed strings *)
Theorem C08_string_membership : forall s vals,
  existsb (enum_eq TString (GS s)) (map EVStr vals) = existsb (fun v => json_eqb (JStr s) (JStr v)) vals.
Proof. intros s vals. exact (existsb_map EVStr (enum_eq TString (GS s)) vals). Qed.
Print Assumptions C08_string_membership.
(* on a float64 carrier: numeric equality by value *)
Theorem C08_number_membership : forall q vals,
  existsb (enum_eq TFloat (GF q)) (map EVFloat vals) = existsb (fun v => Qeq_bool q v) vals.
Proof. intros q vals. exact (existsb_map EVFloat (enum_eq TFloat (GF q)) vals). Qed.
Print Assumptions C08_number_membership.
(* on the plain int carrier: integer equality *)
Theorem C08_int_membership : forall z vals,
  existsb (enum_eq (TInt KInt) (GI z)) (map EVInt vals) = existsb (Z.eqb z) vals.
Proof. intros z vals. exact (existsb_map EVInt (enum_eq (TInt KInt) (GI z)) vals). Qed.
Print Assumptions C08_int_membership.

(* refuted in full: with --min-sized-ints the carrier is a sized kind and never DeepEqual to the table's
   `int` entries: every listed value is rejected (D15) *)
Theorem C08_refuted_sized_carrier : exists k z, existsb (enum_eq (TInt k) (GI z)) [EVInt z] = false.
Proof. exists KI8, 1%Z. reflexivity. Qed.
(* refuted in full: null on a required enum listing the carrier's zero value is accepted (D39) *)
Theorem C08_refuted_null_zero : exists vals, is_ok (dec (fun _ _ => true) [] 5 (TEnum [69]%N (TInt KInt) false vals) JNull) = true
  /\ existsb (json_eqb JNull) [JInt 0; JInt 10] = false.
Proof. exists [EVInt 0; EVInt 10]. vm_compute. split; reflexivity. Qed.

(* end to end: a string enum as a property of an object (at any nesting depth, C02_nested_objects_exact with [enum_leaf] among the leaves): the
   declared struct accepts the document iff the value is one of the listed strings.  Instance: {c: enum [r, g], required} on a member, a
   non-member string, a number and the empty object *)
Theorem C08_enum_objects_inhabited :
  exists t b, gen (fun s => s) (mkCfg false false) [] (fuelG 0 2) MDeclared None false ex_enum_obj [82]%N = Done (t, b) /\
    (forall kv, In kv ex_enum_docs ->
       is_ok (dec (fun _ _ => true) [] (fuelD 0 0) t (JObj kv)) = valid (fun _ _ => true) [] (fuelV 0 0) ex_enum_obj (JObj kv)) /\
    map (fun kv => valid (fun _ _ => true) [] (fuelV 0 0) ex_enum_obj (JObj kv)) ex_enum_docs = [true; false; false; false].
Proof. exact enum_inhabited. Qed.
Print Assumptions C08_enum_objects_inhabited.

(* integer enums (after repair d4feaa6 of D57): the table the generator builds from ANY list of numbers - fractions and numbers beyond the int
   range included - is matched by a decoded int exactly when the int equals a listed number *)
Theorem C08_int_enum_table : forall l tbl z, all_numbers_to_int l = Some tbl -> in_range KInt z = true ->
  existsb (enum_eq (TInt KInt) (GI z)) tbl = existsb (json_num_eq z) l.
Proof. exact int_enum_exact. Qed.
Print Assumptions C08_int_enum_table.

(* end to end for {"type": "integer", "enum": [...numbers...]}: generator, table, decoder against the reference semantics - the declared type
   accepts a document iff the document is valid, for every list of numbers and every document inside the integer guard (integer literals inside
   Go's int; any other JSON type except null) *)
Theorem C08_int_enum_generated_exact : forall idf cf defs fmt_ok env sdefs, g_minsized cf = false ->
  forall f fd fv self sc p ty bp x,
  int_enum_leaf p -> Gen.gen idf cf defs (S f) MInline self false p sc = Done (ty, bp) -> int_value x ->
  is_ok (Exec.dec fmt_ok env (S (S fd)) ty x) = Valid.valid fmt_ok sdefs (S fv) p x.
Proof. exact int_enum_generated_exact. Qed.
Print Assumptions C08_int_enum_generated_exact.

Theorem C08_int_enum_inhabited :
  int_enum_leaf ex_int_enum /\
  exists ty b, Gen.gen (fun s => s) (mkCfg false false) [] 5 MInline None false ex_int_enum [69]%N = Done (ty, b) /\
    map (fun x => (is_ok (Exec.dec (fun _ _ => true) [] 4 ty x), Valid.valid (fun _ _ => true) [] 3 ex_int_enum x))
        [JInt 1; JInt 2; JInt 3; JStr [49]%N] = [(true, true); (false, false); (true, true); (false, false)] /\
    Forall int_value [JInt 1; JInt 2; JInt 3; JStr [49]%N].
Proof. exact int_enum_generated_inhabited. Qed.
Print Assumptions C08_int_enum_inhabited.

(* one object level whose properties are scalar leaves (C02_nested_objects_exact) or integer enums: accepted iff valid *)
Theorem C08_int_enum_objects_exact : forall idf cf defs fmt_ok env sdefs, g_minsized cf = false -> g_only_models cf = false ->
  forall f fd fv self sub s scope t bb kv,
  scope <> [] ->
  plain_object s -> c_types (s_con s) = [SObject] -> s_addl s = None -> s_addl_false s = false ->
  NoDup (map fst (s_props s)) -> incl (c_required (s_con s)) (map fst (s_props s)) ->
  NoDup (map fst (prop_names idf (s_props s))) -> (forall fname kp, In (fname, kp) (prop_names idf (s_props s)) -> fname <> []) ->
  (forall k p, In (k, p) (s_props s) -> leaf p \/ int_enum_leaf p) ->
  NoDup (map fst kv) ->
  (forall k p x, In (k, p) (s_props s) -> lookup k kv = Some x ->
     x <> JNull /\ (str_leaf p -> forall s0, x = JStr s0 -> utf8_len s0 = length s0) /\ (int_leaf p -> int_value x) /\ (arr_leaf p -> arr_value x) /\ (map_leaf p -> map_value x) /\
     (int_enum_leaf p -> int_value x)) ->
  Gen.gen idf cf defs (S (S (S f))) MDeclared self sub s scope = Done (t, bb) ->
  is_ok (Exec.dec fmt_ok env (S (S (S (S fd)))) t (JObj kv)) = Valid.valid fmt_ok sdefs (S (S (S fv))) s (JObj kv).
Proof. exact int_enum_objects_exact. Qed.
Print Assumptions C08_int_enum_objects_exact.

Theorem C08_int_enum_objects_inhabited :
  exists t b, Gen.gen (fun s => s) (mkCfg false false) [] 5 MDeclared None false ex_ie_obj [82]%N = Done (t, b) /\
    (forall kv, In kv ex_ie_docs ->
       is_ok (Exec.dec (fun _ _ => true) [] 5 t (JObj kv)) = Valid.valid (fun _ _ => true) [] 4 ex_ie_obj (JObj kv)) /\
    map (fun kv => Valid.valid (fun _ _ => true) [] 4 ex_ie_obj (JObj kv)) ex_ie_docs = [true; false; true; false; false].
Proof. exact int_enum_objects_inhabited. Qed.
Print Assumptions C08_int_enum_objects_inhabited.

(* and at any depth: the integer enum is one of the leaves of C02_nested_objects_exact; instance one level down *)
Theorem C08_int_enum_nested_inhabited :
  exists t b, Gen.gen (fun s => s) (mkCfg false false) [] (fuelG 1 2) MDeclared None false ex_ie_outer [82]%N = Done (t, b) /\
    (forall kv, In kv ex_ie_nested_docs ->
       is_ok (Exec.dec (fun _ _ => true) [] (fuelD 1 0) t (JObj kv)) = Valid.valid (fun _ _ => true) [] (fuelV 1 0) ex_ie_outer (JObj kv)) /\
    map (fun kv => Valid.valid (fun _ _ => true) [] (fuelV 1 0) ex_ie_outer (JObj kv)) ex_ie_nested_docs = [true; false; true; false; true].
Proof. exact int_enum_nested_inhabited. Qed.
Print Assumptions C08_int_enum_nested_inhabited.

(* number enums are leaves of C02_nested_objects_exact as well: {"type": "number", "enum": [0.5, 1, 2.25]} *)
Theorem C08_num_enum_inhabited :
  exists t b, Gen.gen (fun s => s) (mkCfg false false) [] (fuelG 0 2) MDeclared None false ex_ne_obj [82]%N = Done (t, b) /\
    (forall kv, In kv ex_ne_docs ->
       is_ok (Exec.dec (fun _ _ => true) [] (fuelD 0 0) t (JObj kv)) = Valid.valid (fun _ _ => true) [] (fuelV 0 0) ex_ne_obj (JObj kv)) /\
    map (fun kv => Valid.valid (fun _ _ => true) [] (fuelV 0 0) ex_ne_obj (JObj kv)) ex_ne_docs = [true; true; false; false; false].
Proof. exact num_enum_inhabited. Qed.
Print Assumptions C08_num_enum_inhabited.

(* ... and boolean enums: {"type": "boolean", "enum": [true]} *)
Theorem C08_bool_enum_inhabited :
  exists t b, Gen.gen (fun s => s) (mkCfg false false) [] (fuelG 0 2) MDeclared None false ex_be_obj [82]%N = Done (t, b) /\
    (forall kv, In kv ex_be_docs ->
       is_ok (Exec.dec (fun _ _ => true) [] (fuelD 0 0) t (JObj kv)) = Valid.valid (fun _ _ => true) [] (fuelV 0 0) ex_be_obj (JObj kv)) /\
    map (fun kv => Valid.valid (fun _ _ => true) [] (fuelV 0 0) ex_be_obj (JObj kv)) ex_be_docs = [true; false; false; false].
Proof. exact bool_enum_inhabited. Qed.
Print Assumptions C08_bool_enum_inhabited.
