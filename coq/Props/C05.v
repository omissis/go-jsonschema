(* C05 - numeric bounds and multipleOf are enforced exactly as stated.
   Statements only; every proof is `exact <lemma>` or a line or two from one, examples and refutations are evaluated;
   Print Assumptions under each general statement. *)
From GJS Require Import Base Bounds BoundsP NumericP Schema GoType Gen Exec ExecP CoreP.
Open Scope Q_scope.

(* NormalizeBounds + the comparison operators chosen by genBoundary accept exactly the
   intersection of all stated bounds: for every presence combination, both exclusive
   forms, every relative order of the constants (ties included), every value. *)
Theorem C05_normalize : forall (b : bounds) (x : Q), accept_bounds b x = spec_bounds b x.
Proof. exact bounds_exact. Qed.
Print Assumptions C05_normalize.

(* exclusive wins on a tie *)
Theorem C05_tie_min : forall q, norm_min (Some q) (Some (ExNum q)) = (Some q, true).
Proof. exact norm_min_tie. Qed.
Print Assumptions C05_tie_min.
Theorem C05_tie_max : forall q, norm_max (Some q) (Some (ExNum q)) = (Some q, true).
Proof. exact norm_max_tie. Qed.
Print Assumptions C05_tie_max.

(* the returned bound is one of the stated constants and the tightest of them *)
Theorem C05_tightest_min : forall m e b ex, norm_min m e = (Some b, ex) ->
  (m = Some b \/ e = Some (ExNum b)) /\
  (forall mm, m = Some mm -> mm <= b) /\ (forall v, e = Some (ExNum v) -> v <= b).
Proof. exact norm_min_tight. Qed.
Print Assumptions C05_tightest_min.
Theorem C05_tightest_max : forall m e b ex, norm_max m e = (Some b, ex) ->
  (m = Some b \/ e = Some (ExNum b)) /\
  (forall mm, m = Some mm -> b <= mm) /\ (forall v, e = Some (ExNum v) -> b <= v).
Proof. exact norm_max_tight. Qed.
Print Assumptions C05_tightest_max.

(* the validator emitted for integer kinds (int64() constants, `%`) *)
Theorem C05_validator_int : forall (mult : option Z) (b : bounds) (x : Z),
  bounds_integral b -> (forall m, mult = Some m -> m <> 0%Z) ->
  accept_numeric true (option_map inject_Z mult) b (inject_Z x)
  = spec_numeric (option_map inject_Z mult) b (inject_Z x).
Proof. exact numeric_int_exact. Qed.
Print Assumptions C05_validator_int.

(* the validator emitted for float64 kinds (math.Mod, tolerance 1e-10), for every value and
   divisor on a common granule above the tolerance *)
Theorem C05_validator_float : forall (a : Z) (mult : option Z) (g : Q) (b : bounds),
  tol < g -> (forall m, mult = Some m -> m <> 0%Z) ->
  accept_numeric false (option_map (fun m => inject_Z m * g) mult) b (inject_Z a * g)
  = spec_numeric (option_map (fun m => inject_Z m * g) mult) b (inject_Z a * g).
Proof. exact numeric_float_exact. Qed.
Print Assumptions C05_validator_float.

(* the full statement without the guards is false of the faithful model: D11 *)
Theorem C05_refuted_tolerance :
  exists m x, accept_multiple false (Some m) x = true /\ spec_multiple (Some m) x = false.
Proof. exact multiple_float_refuted_tolerance. Qed.
Theorem C05_refuted_fractional_int_bound :
  exists b x, accept_numeric true None b (inject_Z x) = true /\ spec_numeric None b (inject_Z x) = false.
Proof. exact numeric_int_refuted_fractional. Qed.

(* the validator is attached whenever one of the five keywords is present, with the schema's own
   constants, rounding to int64 for integer kinds, with the nil guard for pointer fields *)
Theorem C05_attached_int : forall fname jn c b k nillable, has_bound_kw (c_mult c) b = true ->
  field_validators fname jn c b (TInt k) nillable = [VNumeric fname jn nillable true (c_mult c) b].
Proof. exact numeric_validator_attached_int. Qed.
Print Assumptions C05_attached_int.
Theorem C05_attached_float : forall fname jn c b nillable, has_bound_kw (c_mult c) b = true ->
  field_validators fname jn c b TFloat nillable = [VNumeric fname jn nillable false (c_mult c) b].
Proof. exact numeric_validator_attached_float. Qed.
Print Assumptions C05_attached_float.

(* absent or null optional values are never bound-checked *)
Theorem C05_absent_or_null : forall dvf raw st fname jname rnd mult b, get_plain fname st = Some GNil ->
  after_step dvf raw st (VNumeric fname jname true rnd mult b) = Ok st.
Proof. exact vnumeric_nil. Qed.
Print Assumptions C05_absent_or_null.

(* end to end for a struct method (required: value field; optional / nullable: pointer field) *)
Theorem C05_enforced_number : forall fmt_ok env f c0 name fs vs kv fl jn (nillable : bool) mult b n,
  NoDup (map f_name fs) -> In fl fs -> f_addl fl = false -> f_name fl <> [] ->
  f_ty fl = (if nillable then TPtr TFloat else TFloat) ->
  lookup (f_json fl) kv = Some (JNum n) ->
  In (VNumeric (f_name fl) jn nillable false mult b) vs -> (forall v', In v' vs -> touches (f_name fl) v' = false) ->
  accept_numeric false mult b (nq n) = false ->
  is_ok (dec fmt_ok env f (TStruct (c0 :: name) fs (Some vs)) (JObj kv)) = false.
Proof. exact struct_enforces_number. Qed.
Print Assumptions C05_enforced_number.
Theorem C05_enforced_integer : forall fmt_ok env f c0 name fs vs kv fl jn (nillable : bool) mult b k z,
  NoDup (map f_name fs) -> In fl fs -> f_addl fl = false -> f_name fl <> [] ->
  f_ty fl = (if nillable then TPtr (TInt k) else TInt k) ->
  lookup (f_json fl) kv = Some (JInt z) -> in_range k z = true ->
  In (VNumeric (f_name fl) jn nillable true mult b) vs -> (forall v', In v' vs -> touches (f_name fl) v' = false) ->
  accept_numeric true mult b (inject_Z z) = false ->
  is_ok (dec fmt_ok env f (TStruct (c0 :: name) fs (Some vs)) (JObj kv)) = false.
Proof. exact struct_enforces_integer. Qed.
Print Assumptions C05_enforced_integer.

Example C05_guard_int_inhabited :
  bounds_integral (mkBounds (Some 2) (Some 10) (Some (ExNum 2)) (Some (ExBool true))) /\
  (forall m, Some 3%Z = Some m -> m <> 0%Z).
Proof.
  split.
  - repeat split; intros q H; inversion H; subst; [exists 2%Z|exists 10%Z|exists 2%Z]; reflexivity.
  - intros m H; inversion H; lia.
Qed.
Example C05_guard_float_inhabited : tol < (1 # 1000).
Proof. reflexivity. Qed.
