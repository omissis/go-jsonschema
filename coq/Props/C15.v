(* C15 - --min-sized-ints never changes which documents are accepted.
   Statements only; every proof is `exact <lemma>` or a line or two from one, examples and refutations are evaluated;
   Print Assumptions under each general statement.
   [zbounds] are the integral bounds a schema states for an integer (each of minimum,
   maximum absent or an integer; each exclusive bound absent, a draft-4 boolean or a
   draft-6 integer); [to_bounds] embeds them into the model's rational bounds. *)
From GJS Require Import Base Bounds IntSize IntSizeP.

(* the chosen type can represent every integer (of Go's int) the bounds admit *)
Theorem C15_range : forall zb k rmin rmax x,
  min_int_type (to_bounds zb) = (k, rmin, rmax) -> in_range KInt x = true ->
  spec_bounds (to_bounds zb) (inject_Z x) = true -> in_range k x = true.
Proof. exact min_sized_range. Qed.
Print Assumptions C15_range.

(* it is the narrowest sized type that can (two-sided bounds lo <= hi), unsigned iff lo >= 0 *)
Theorem C15_narrowest : forall zb l h k rmin rmax k',
  lo_of zb = Some l -> hi_of zb = Some h -> (l <= h)%Z ->
  min_int_type (to_bounds zb) = (k, rmin, rmax) -> fits k' l h = true ->
  fits k l h = true /\ int_width k <= int_width k' /\ int_signed k = negb (0 <=? l)%Z.
Proof. exact min_sized_narrowest. Qed.
Print Assumptions C15_narrowest.

(* where lo_of / hi_of are exactly the tightest integers the keywords state *)
Theorem C15_lo_hi_meaning : forall zb x,
  spec_bounds (to_bounds zb) (inject_Z x) = true <->
  (forall l, lo_of zb = Some l -> (l <= x)%Z) /\ (forall h, hi_of zb = Some h -> (x <= h)%Z).
Proof. exact lo_hi_spec. Qed.
Print Assumptions C15_lo_hi_meaning.

(* a bound check is dropped only when the type's range already implies it *)
Theorem C15_removal_min : forall zb k rmax x,
  min_int_type (to_bounds zb) = (k, true, rmax) -> in_range k x = true ->
  spec_lower (b_min (to_bounds zb)) (b_exmin (to_bounds zb)) (inject_Z x) = true.
Proof. exact min_sized_removal_min. Qed.
Print Assumptions C15_removal_min.
Theorem C15_removal_max : forall zb k rmin x,
  min_int_type (to_bounds zb) = (k, rmin, true) -> in_range k x = true ->
  spec_upper (b_max (to_bounds zb)) (b_exmax (to_bounds zb)) (inject_Z x) = true.
Proof. exact min_sized_removal_max. Qed.
Print Assumptions C15_removal_max.

(* consequently the accepted integers are the same with and without the flag: decode into
   the sized kind + the validator over the remaining keywords  =  decode into int + the
   validator over all keywords; for every multipleOf, every bound combination, every x of int *)
Theorem C15_same_accepts : forall (mult : option Z) zb x,
  (forall m, mult = Some m -> m <> 0%Z) -> in_range KInt x = true ->
  accept_flag true (option_map inject_Z mult) (to_bounds zb) x
  = accept_flag false (option_map inject_Z mult) (to_bounds zb) x.
Proof. exact min_sized_same_accepts. Qed.
Print Assumptions C15_same_accepts.

(* the statement without the `int` guard is false of the faithful model (D27): with only a
   non-negative minimum the flag selects uint64, which admits 2^63 while int does not *)
Theorem C15_refuted_beyond_int :
  exists zb x, accept_flag true None (to_bounds zb) x = true /\ accept_flag false None (to_bounds zb) x = false.
Proof. exact min_sized_refuted_beyond_int. Qed.

Example C15_hyps_inhabited :
  min_int_type (to_bounds (mkZB (Some 0%Z) None None (Some (ZExNum 256%Z)))) = (KU8, true, true) /\
  in_range KInt 255 = true /\
  spec_bounds (to_bounds (mkZB (Some 0%Z) None None (Some (ZExNum 256%Z)))) (inject_Z 255) = true /\
  lo_of (mkZB (Some 0%Z) None None (Some (ZExNum 256%Z))) = Some 0%Z /\
  hi_of (mkZB (Some 0%Z) None None (Some (ZExNum 256%Z))) = Some 255%Z /\ fits KI16 0 255 = true.
Proof. vm_compute. repeat split; reflexivity. Qed.
