(* The vocabulary every file shares (strings as code-point lists, association lists, exact numbers, JSON trees) with
   the lemmas through which it is used, and the general list facts the standard library lacks. *)
From Coq Require Export List QArith Lia.
Export ListNotations.
Close Scope Q_scope.
Open Scope nat_scope.

Definition str := list N.

Fixpoint str_eqb (a b : str) : bool :=
  match a, b with
  | [], [] => true
  | x :: a', y :: b' => N.eqb x y && str_eqb a' b'
  | _, _ => false
  end.

Lemma str_eqb_eq a b : str_eqb a b = true <-> a = b.
Proof.
  revert b; induction a as [|x a IH]; destruct b as [|y b]; cbn; try (split; congruence).
  rewrite andb_true_iff, N.eqb_eq, IH.
  split; [intros [-> ->]; reflexivity | intros H; inversion H; auto].
Qed.

Lemma str_eqb_refl a : str_eqb a a = true.
Proof. apply str_eqb_eq; reflexivity. Qed.

Lemma str_eqb_spec a b : reflect (a = b) (str_eqb a b).
Proof. apply iff_reflect. symmetry. apply str_eqb_eq. Qed.

Lemma str_eqb_neq a b : str_eqb a b = false <-> a <> b.
Proof. destruct (str_eqb_spec a b); split; congruence. Qed.

(* lexicographic order on code points = Go's string order on valid UTF-8 *)
Fixpoint str_ltb (a b : str) : bool :=
  match a, b with
  | [], [] => false
  | [], _ :: _ => true
  | _ :: _, [] => false
  | x :: a', y :: b' => if N.ltb x y then true else if N.eqb x y then str_ltb a' b' else false
  end.
Definition str_leb (a b : str) : bool := negb (str_ltb b a).

Lemma str_ltb_irrefl a : str_ltb a a = false.
Proof. induction a as [|x a IH]; cbn; [reflexivity|]. rewrite N.ltb_irrefl, N.eqb_refl. exact IH. Qed.

Lemma str_ltb_cons x a y b : str_ltb (x :: a) (y :: b) = true <-> (x < y)%N \/ x = y /\ str_ltb a b = true.
Proof.
  cbn. destruct (N.ltb_spec x y) as [L|L]; [tauto|]. destruct (N.eqb_spec x y) as [E|E].
  - split; [tauto|]. intros [H|[_ H]]; [lia|exact H].
  - split; [discriminate|]. intros [H|[H _]]; [lia|contradiction].
Qed.

Lemma str_ltb_trans a : forall b c, str_ltb a b = true -> str_ltb b c = true -> str_ltb a c = true.
Proof.
  induction a as [|x a IH]; intros [|y b] [|z c]; try (cbn; congruence). rewrite !str_ltb_cons.
  intros [L1|[-> H1]] [L2|[-> H2]].
  - left. exact (N.lt_trans _ _ _ L1 L2).
  - left. exact L1.
  - left. exact L2.
  - right. split; [reflexivity|exact (IH _ _ H1 H2)].
Qed.

Lemma str_ltb_total a : forall b, str_ltb a b = true \/ a = b \/ str_ltb b a = true.
Proof.
  induction a as [|x a IH]; intros [|y b]; auto. rewrite !str_ltb_cons.
  destruct (N.lt_trichotomy x y) as [H|[->|H]]; auto. destruct (IH b) as [H|[->|H]]; auto.
Qed.

Lemma str_ltb_asym a b : str_ltb a b = true -> str_ltb b a = false.
Proof.
  intros H. destruct (str_ltb b a) eqn:E; [|reflexivity].
  pose proof (str_ltb_trans _ _ _ H E) as H2. rewrite str_ltb_irrefl in H2. discriminate.
Qed.

Lemma str_leb_total a b : str_leb a b = true \/ str_leb b a = true.
Proof. unfold str_leb. destruct (str_ltb b a) eqn:E; [right; rewrite (str_ltb_asym _ _ E)|left]; reflexivity. Qed.

Lemma str_leb_antisym a b : str_leb a b = true -> str_leb b a = true -> a = b.
Proof.
  unfold str_leb. intros H1 H2. apply negb_true_iff in H1, H2.
  destruct (str_ltb_total a b) as [H|[H|H]]; congruence.
Qed.

Lemma str_leb_trans a b c : str_leb a b = true -> str_leb b c = true -> str_leb a c = true.
Proof.
  unfold str_leb. intros H1 H2. apply negb_true_iff in H1, H2. apply negb_true_iff.
  destruct (str_ltb c a) eqn:E; [|reflexivity].
  destruct (str_ltb_total b c) as [H|[H|H]].
  - rewrite (str_ltb_trans _ _ _ H E) in H1. discriminate.
  - subst. congruence.
  - congruence.
Qed.

(* UTF-8 length of a code point / string: Go's len() counts bytes *)
Definition utf8_len1 (c : N) : nat :=
  if N.ltb c 128 then 1 else if N.ltb c 2048 then 2 else if N.ltb c 65536 then 3 else 4.
Definition utf8_len (s : str) : nat := fold_right (fun c n => utf8_len1 c + n) 0 s.

Lemma utf8_len_ascii s : Forall (fun c => (c < 128)%N) s -> utf8_len s = length s.
Proof.
  induction 1 as [|c s Hc _ IH]; cbn; [reflexivity|].
  unfold utf8_len1. destruct (N.ltb_spec c 128); [|lia]. cbn. f_equal. exact IH.
Qed.

Definition mem (k : str) (l : list str) : bool := existsb (str_eqb k) l.

Lemma mem_In k l : mem k l = true <-> In k l.
Proof.
  unfold mem. rewrite existsb_exists. split.
  - intros [x [Hin E]]. apply str_eqb_eq in E. subst; auto.
  - intros H. exists k. split; auto. apply str_eqb_refl.
Qed.

Fixpoint nodupb (l : list str) : bool := match l with [] => true | x :: r => negb (mem x r) && nodupb r end.
Lemma nodupb_NoDup l : nodupb l = true -> NoDup l.
Proof.
  induction l as [|x r IH]; cbn [nodupb]; intros H; [constructor|].
  apply andb_true_iff in H. destruct H as [Hx Hr]. constructor; [|exact (IH Hr)].
  intros Hin. apply mem_In in Hin. rewrite Hin in Hx. discriminate.
Qed.

Fixpoint lookup {A} (k : str) (kv : list (str * A)) : option A :=
  match kv with
  | [] => None
  | (k', v) :: r => if str_eqb k k' then Some v else lookup k r
  end.

Lemma lookup_same {A} k (v : A) r : lookup k ((k, v) :: r) = Some v.
Proof. cbn. rewrite str_eqb_refl. reflexivity. Qed.

Lemma lookup_other {A} k k' (v : A) r : k <> k' -> lookup k ((k', v) :: r) = lookup k r.
Proof. intros H. cbn. destruct (str_eqb_spec k k'); [contradiction|reflexivity]. Qed.

Lemma lookup_app {A} k (p q : list (str * A)) :
  lookup k (p ++ q) = match lookup k p with Some x => Some x | None => lookup k q end.
Proof.
  induction p as [|[k' x] r IH]; [reflexivity|]. cbn [app lookup]. destruct (str_eqb k k'); [reflexivity|exact IH].
Qed.

Lemma lookup_In {A} k (kv : list (str * A)) v : lookup k kv = Some v -> In (k, v) kv.
Proof.
  induction kv as [|[k' v'] r IH]; cbn; [discriminate|].
  destruct (str_eqb_spec k k') as [->|]; [intros [= ->]|]; auto.
Qed.

Lemma lookup_None {A} k (kv : list (str * A)) : lookup k kv = None <-> ~ In k (map fst kv).
Proof.
  induction kv as [|[k' v'] r IH]; cbn; [tauto|].
  destruct (str_eqb_spec k k') as [->|E].
  - split; [discriminate | intros H; destruct H; auto].
  - rewrite IH. split; [intros H [H1|H1]; [congruence|auto] | tauto].
Qed.

Lemma lookup_in_keys {A} k (kv : list (str * A)) : In k (map fst kv) -> exists v, lookup k kv = Some v.
Proof. intros H. destruct (lookup k kv) eqn:E; [eauto | apply lookup_None in E; contradiction]. Qed.

Lemma lookup_NoDup_In {A} k (v : A) kv : NoDup (map fst kv) -> In (k, v) kv -> lookup k kv = Some v.
Proof.
  induction kv as [|[k' v'] r IH]; cbn; [tauto|].
  intros ND [[= -> ->]|H]; [rewrite str_eqb_refl; reflexivity|].
  inversion ND as [|? ? Hn ND']; subst.
  destruct (str_eqb_spec k k') as [->|]; [|auto].
  destruct Hn. exact (in_map fst r (k', v) H).
Qed.

Lemma lookup_filter_keys {A} k (keys : list str) (l : list (str * A)) :
  lookup k (filter (fun kv => negb (mem (fst kv) keys)) l) = if mem k keys then None else lookup k l.
Proof.
  induction l as [|[k' v] r IH]; [destruct (mem k keys); reflexivity|]. cbn [filter fst].
  destruct (mem k' keys) eqn:E'; cbn [negb lookup]; destruct (str_eqb_spec k k') as [->|]; try exact IH; rewrite ?IH, E'; reflexivity.
Qed.

Lemma forallb_swap {A B} (V : A -> B -> bool) (props : list (str * A)) (kv : list (str * B)) :
  NoDup (map fst props) -> NoDup (map fst kv) ->
  forallb (fun q => match lookup (fst q) props with Some ps => V ps (snd q) | None => true end) kv =
  forallb (fun kp => match lookup (fst kp) kv with Some x => V (snd kp) x | None => true end) props.
Proof.
  intros Np Nk. apply eq_true_iff_eq. rewrite !forallb_forall. split.
  - intros H [k p] Hin. cbn [fst snd]. destruct (lookup k kv) as [x|] eqn:El; [|reflexivity].
    specialize (H (k, x) (lookup_In _ _ _ El)). cbn [fst snd] in H. rewrite (lookup_NoDup_In k p props Np Hin) in H. exact H.
  - intros H [k x] Hin. cbn [fst snd]. destruct (lookup k props) as [p|] eqn:El; [|reflexivity].
    specialize (H (k, p) (lookup_In _ _ _ El)). cbn [fst snd] in H. rewrite (lookup_NoDup_In k x kv Nk Hin) in H. exact H.
Qed.

Lemma forallb_ext_in {A} (f g : A -> bool) (l : list A) : (forall x, In x l -> f x = g x) -> forallb f l = forallb g l.
Proof.
  induction l as [|a l IH]; intros H; cbn; [reflexivity|].
  rewrite (H a (or_introl eq_refl)), IH; [reflexivity|]. intros x Hx. apply H. right; exact Hx.
Qed.

Lemma forallb_impl {A} (p q : A -> bool) (l : list A) :
  (forall x, In x l -> p x = true -> q x = true) -> forallb p l = true -> forallb q l = true.
Proof. rewrite !forallb_forall. intros H Hp x Hx. exact (H x Hx (Hp x Hx)). Qed.

Lemma forallb_true {A} (l : list A) : forallb (fun _ => true) l = true.
Proof. induction l; [reflexivity|assumption]. Qed.

Lemma forallb_map {A B} (g : A -> B) (q : B -> bool) l : forallb q (map g l) = forallb (fun a => q (g a)) l.
Proof. induction l as [|a r IH]; [reflexivity|]. cbn [map forallb]. rewrite IH. reflexivity. Qed.

Lemma forallb_flat_map {A B} (g : A -> list B) (p : B -> bool) (l : list A) :
  forallb p (flat_map g l) = forallb (fun a => forallb p (g a)) l.
Proof. induction l as [|a r IH]; [reflexivity|]. cbn [flat_map forallb]. rewrite forallb_app, IH. reflexivity. Qed.

Lemma andb_swap4 a b c d : (a && b) && (c && d) = (a && c) && (b && d).
Proof. destruct a, b, c, d; reflexivity. Qed.

Lemma forallb_and {A} (p q r : A -> bool) (l : list A) :
  (forall x, In x l -> p x = q x && r x) -> forallb p l = forallb q l && forallb r l.
Proof.
  induction l as [|x t IH]; intros H; [reflexivity|]. cbn [forallb].
  rewrite (H x (or_introl eq_refl)), IH by (intros y Hy; apply H; right; exact Hy).
  apply andb_swap4.
Qed.

Lemma forallb_same_members {A} (p : A -> bool) (l1 l2 : list A) : (forall x, In x l1 <-> In x l2) -> forallb p l1 = forallb p l2.
Proof.
  intros H. apply eq_true_iff_eq. rewrite !forallb_forall. split; intros Hp x Hx; apply Hp, H, Hx.
Qed.

Lemma flat_map_nil {A B} (g : A -> list B) (l : list A) : (forall x, In x l -> g x = []) -> flat_map g l = [].
Proof. induction l as [|a r IH]; intros H; [reflexivity|]. cbn [flat_map]. rewrite (H a (or_introl eq_refl)). apply IH. intros x Hx. apply H. right; exact Hx. Qed.

Lemma find_all_false {A} (f : A -> bool) (l : list A) : (forall x, In x l -> f x = false) -> find f l = None.
Proof.
  intros H. destruct (find f l) as [x|] eqn:E; [|reflexivity]. apply find_some in E. destruct E as [Hx E]. rewrite (H x Hx) in E. discriminate.
Qed.

Lemma existsb_map {A B} (f : A -> B) (p : B -> bool) (l : list A) : existsb p (map f l) = existsb (fun x => p (f x)) l.
Proof. induction l as [|a r IH]; cbn; [reflexivity|]. rewrite IH. reflexivity. Qed.

Lemma existsb_false {A} (p : A -> bool) (l : list A) : (forall x, In x l -> p x = false) -> existsb p l = false.
Proof.
  intros H. apply not_true_is_false. intros E. apply existsb_exists in E. destruct E as [x [Hx Hp]]. rewrite (H x Hx) in Hp. discriminate.
Qed.

Lemma existsb_false_In {A} (p : A -> bool) (l : list A) x : existsb p l = false -> In x l -> p x = false.
Proof. intros H Hx. apply not_true_is_false. intros E. rewrite (proj2 (existsb_exists p l)) in H by (exists x; auto). discriminate. Qed.

Lemma map_nth_seq {A} (l : list A) d : map (fun i => nth i l d) (seq 0 (length l)) = l.
Proof. induction l as [|a l IH]; cbn; [reflexivity|]. rewrite <- seq_shift, map_map. f_equal. exact IH. Qed.

Lemma combine_fst {A B} (l1 : list A) (l2 : list B) : length l1 = length l2 -> map fst (combine l1 l2) = l1.
Proof. revert l2. induction l1 as [|a r IH]; intros [|b s] H; try discriminate; [reflexivity|]. cbn. f_equal. apply IH. inversion H; reflexivity. Qed.

Lemma combine_snd {A B} (l1 : list A) (l2 : list B) : length l1 = length l2 -> map snd (combine l1 l2) = l2.
Proof. revert l2. induction l1 as [|a r IH]; intros [|b s] H; try discriminate; [reflexivity|]. cbn. f_equal. apply IH. inversion H; reflexivity. Qed.

Lemma Forall2_diag {A} (R : A -> A -> Prop) (l : list A) : (forall x, R x x) -> Forall2 R l l.
Proof. intros H. induction l; constructor; auto. Qed.

Lemma Forall2_length {A B} (R : A -> B -> Prop) l1 l2 : Forall2 R l1 l2 -> length l1 = length l2.
Proof. induction 1 as [|a b l1 l2 _ _ IH]; [reflexivity|]. cbn [length]. rewrite IH. reflexivity. Qed.

Lemma Forall2_In_l {A B} (R : A -> B -> Prop) l1 l2 x : Forall2 R l1 l2 -> In x l1 -> exists y, In y l2 /\ R x y.
Proof.
  induction 1 as [|a b l1 l2 Hab _ IH]; intros Hin; [contradiction|].
  destruct Hin as [->|Hin]; [exists b; split; [left; reflexivity|exact Hab]|].
  destruct (IH Hin) as [y [Hy Hr]]. exists y. split; [right; exact Hy|exact Hr].
Qed.

Lemma Forall2_In_r {A B} (R : A -> B -> Prop) l1 l2 y : Forall2 R l1 l2 -> In y l2 -> exists x, In x l1 /\ R x y.
Proof.
  induction 1 as [|a b l1 l2 Hab _ IH]; intros Hin; [contradiction|].
  destruct Hin as [->|Hin]; [exists a; split; [left; reflexivity|exact Hab]|].
  destruct (IH Hin) as [x [Hx Hr]]. exists x. split; [right; exact Hx|exact Hr].
Qed.

Lemma Forall2_impl_In {A B} (R1 R2 : A -> B -> Prop) l1 l2 :
  Forall2 R1 l1 l2 -> (forall x y, In x l1 -> R1 x y -> R2 x y) -> Forall2 R2 l1 l2.
Proof.
  induction 1 as [|a b l1 l2 Hab _ IH]; intros H; constructor; [exact (H a b (or_introl eq_refl) Hab)|].
  apply IH. intros x y Hx. apply H. right; exact Hx.
Qed.

Lemma Forall2_Forall_r {A B} (R : A -> B -> Prop) (P : B -> Prop) l1 l2 :
  Forall2 R l1 l2 -> (forall x y, In x l1 -> R x y -> P y) -> Forall P l2.
Proof. intros H HP. apply (Forall2_impl_In R (fun _ y => P y) _ _ H) in HP. clear H. induction HP; constructor; assumption. Qed.

Lemma Forall2_map_eq {A B C} (R : A -> B -> Prop) (f : A -> C) (g : B -> C) l1 l2 :
  Forall2 R l1 l2 -> (forall x y, In x l1 -> R x y -> f x = g y) -> map f l1 = map g l2.
Proof.
  intros H Hfg. apply (Forall2_impl_In R (fun x y => f x = g y) _ _ H) in Hfg. clear H.
  induction Hfg as [|a b r1 r2 E _ IH]; [reflexivity|]. cbn [map]. rewrite E, IH. reflexivity.
Qed.

Lemma forallb_Forall2 {A B} (R : A -> B -> Prop) (p : A -> bool) (q : B -> bool) l1 l2 :
  Forall2 R l1 l2 -> (forall x y, In x l1 -> R x y -> p x = q y) -> forallb p l1 = forallb q l2.
Proof.
  intros H Hpq. apply (Forall2_impl_In R (fun x y => p x = q y) _ _ H) in Hpq. clear H.
  induction Hpq as [|a b r1 r2 E _ IH]; [reflexivity|]. cbn [forallb]. rewrite E, IH. reflexivity.
Qed.

Lemma existsb_Forall2 {A B} (R : A -> B -> Prop) (p : A -> bool) (q : B -> bool) l1 l2 :
  Forall2 R l1 l2 -> (forall x y, In x l1 -> R x y -> p x = q y) -> existsb p l1 = existsb q l2.
Proof.
  intros H Hpq. apply (Forall2_impl_In R (fun x y => p x = q y) _ _ H) in Hpq. clear H.
  induction Hpq as [|a b r1 r2 E _ IH]; [reflexivity|]. cbn [existsb]. rewrite E, IH. reflexivity.
Qed.

Lemma fold_left_Forall2 {A B S} (R : A -> B -> Prop) (f : S -> A -> S) (g : S -> B -> S) l1 l2 :
  Forall2 R l1 l2 -> (forall s a b, R a b -> f s a = g s b) -> forall s, fold_left f l1 s = fold_left g l2 s.
Proof. intros H Hfg. induction H as [|a b l1 l2 Hab _ IH]; intros s; [reflexivity|]. cbn [fold_left]. rewrite (Hfg s a b Hab). apply IH. Qed.

(* numbers: exact rationals with the way they were written.  nlit_int: as a bare integer literal
   (no '.', no exponent); encoding/json rejects 5.0 and 1e2 for Go integer kinds although they
   denote integers. *)
Record num := mkNum { nq : Q; nlit_int : bool }.

Definition Qis_int (q : Q) : bool := Z.eqb (Z.rem (Qnum q) (Z.pos (Qden q))) 0.
Definition Qfloor_z (q : Q) : Z := Z.div (Qnum q) (Z.pos (Qden q)).
Definition Qtrunc_z (q : Q) : Z := Z.quot (Qnum q) (Z.pos (Qden q)).   (* Go's int64(f) *)

Definition Qltb (a b : Q) : bool := negb (Qle_bool b a).
Definition Qgtb (a b : Q) : bool := negb (Qle_bool a b).
Definition Qgeb (a b : Q) : bool := Qle_bool b a.

Lemma Qle_bool_spec a b : reflect (a <= b)%Q (Qle_bool a b).
Proof. apply iff_reflect. symmetry. apply Qle_bool_iff. Qed.

Lemma Qeq_bool_spec a b : reflect (a == b)%Q (Qeq_bool a b).
Proof. apply iff_reflect. symmetry. apply Qeq_bool_iff. Qed.

(* [==] is not [=] on Q: what the integer readings do on injected integers; [Qtrunc_z] and [Qis_int] respect [==] *)
Lemma Qtrunc_inject z : Qtrunc_z (inject_Z z) = z.
Proof. apply Z.quot_1_r. Qed.
Lemma Qfloor_inject z : Qfloor_z (inject_Z z) = z.
Proof. apply Z.div_1_r. Qed.

Lemma Qle_bool_inject a b : Qle_bool (inject_Z a) (inject_Z b) = (a <=? b)%Z.
Proof. unfold Qle_bool, inject_Z; cbn. rewrite !Z.mul_1_r. reflexivity. Qed.
Lemma Qltb_inject a b : Qltb (inject_Z a) (inject_Z b) = (a <? b)%Z.
Proof. unfold Qltb. rewrite Qle_bool_inject, Z.ltb_antisym. reflexivity. Qed.
Lemma Qeq_bool_inject_0 m : Qeq_bool (inject_Z m) 0 = (m =? 0)%Z.
Proof. unfold Qeq_bool, inject_Z; cbn. rewrite Z.mul_1_r. destruct m; reflexivity. Qed.

Lemma Qtrunc_z_proper a b : (a == b)%Q -> Qtrunc_z a = Qtrunc_z b.
Proof.
  unfold Qeq, Qtrunc_z. intros H.
  rewrite <- (Z.quot_mul_cancel_r (Qnum a) (QDen a) (QDen b)), H, (Z.mul_comm (QDen a)) by discriminate.
  apply Z.quot_mul_cancel_r; discriminate.
Qed.

Lemma Qis_int_iff q : Qis_int q = true <-> exists k : Z, (q == inject_Z k)%Q.
Proof.
  destruct q as [n d]. unfold Qis_int, Qeq, inject_Z; cbn [Qnum Qden]. rewrite Z.eqb_eq. split.
  - intros H. exists (Z.quot n (Z.pos d)). pose proof (Z.quot_rem' n (Z.pos d)). nia.
  - intros [k Hk]. replace n with (k * Z.pos d)%Z by lia. apply Z.rem_mul. lia.
Qed.
Lemma Qis_int_inject z : Qis_int (inject_Z z) = true.
Proof. apply Z.eqb_eq, Z.rem_1_r. Qed.
Lemma Qis_int_proper a b : (a == b)%Q -> Qis_int a = Qis_int b.
Proof.
  intros H. apply eq_true_iff_eq. rewrite !Qis_int_iff.
  split; intros [k Hk]; exists k; [rewrite <- H | rewrite H]; exact Hk.
Qed.

Inductive json :=
| JNull
| JBool (b : bool)
| JNum (n : num)
| JStr (s : str)
| JArr (l : list json)
| JObj (kv : list (str * json)).

Definition JInt (z : Z) : json := JNum (mkNum (inject_Z z) true).
Definition JQ (q : Q) : json := JNum (mkNum q false).

Inductive jtype := JTNull | JTBool | JTNum | JTStr | JTArr | JTObj.
Definition json_type (j : json) : jtype :=
  match j with
  | JNull => JTNull | JBool _ => JTBool | JNum _ => JTNum | JStr _ => JTStr | JArr _ => JTArr | JObj _ => JTObj
  end.

Section JsonInd.
  Variable P : json -> Prop.
  Hypothesis Hnull : P JNull.
  Hypothesis Hbool : forall b, P (JBool b).
  Hypothesis Hnum : forall n, P (JNum n).
  Hypothesis Hstr : forall s, P (JStr s).
  Hypothesis Harr : forall l, Forall P l -> P (JArr l).
  Hypothesis Hobj : forall kv, Forall (fun p => P (snd p)) kv -> P (JObj kv).
  Fixpoint json_ind' (j : json) : P j :=
    match j with
    | JNull => Hnull
    | JBool b => Hbool b
    | JNum n => Hnum n
    | JStr s => Hstr s
    | JArr l => Harr l ((fix go (l : list json) : Forall P l :=
                           match l with [] => Forall_nil _ | x :: r => Forall_cons _ (json_ind' x) (go r) end) l)
    | JObj kv => Hobj kv ((fix go (kv : list (str * json)) : Forall (fun p => P (snd p)) kv :=
                           match kv with [] => Forall_nil _ | (k, x) :: r => Forall_cons (k, x) (json_ind' x) (go r) end) kv)
    end.
End JsonInd.

(* JSON equality as JSON Schema defines it (numbers by value, objects as maps) *)
Fixpoint json_eqb (a b : json) {struct a} : bool :=
  match a, b with
  | JNull, JNull => true
  | JBool x, JBool y => Bool.eqb x y
  | JNum x, JNum y => Qeq_bool (nq x) (nq y)
  | JStr x, JStr y => str_eqb x y
  | JArr x, JArr y =>
      (fix go (x y : list json) : bool :=
         match x, y with
         | [], [] => true
         | u :: x', v :: y' => json_eqb u v && go x' y'
         | _, _ => false
         end) x y
  | JObj x, JObj y =>
      Nat.eqb (length x) (length y) &&
      (fix go (x : list (str * json)) : bool :=
         match x with
         | [] => true
         | (k, u) :: x' => match lookup k y with Some v => json_eqb u v | None => false end && go x'
         end) x
  | _, _ => false
  end.
